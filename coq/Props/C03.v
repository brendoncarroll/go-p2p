(* C03 — A session is usable only after the peer proved its key for this handshake.
   Sessions are driven by ARBITRARY inputs: any wire message (well-formed or not,
   replayed, spliced, forged with any key) and any Send, in any order. *)
From P2PV Require Import Lib.Base Model.Handshake Model.Session Proofs.SessionP Proofs.SessionP2.
Open Scope N_scope.

(* In every state reachable by any input sequence, a session that reports ready,
   accepts application data or agrees to encrypt (usable) has verified a
   channel-binding signature under exactly the key it reports as remote, over its
   own transcript hash, and that hash covers its own fresh ephemeral. *)
Theorem C03_gate : forall is_init me eph ts ins s log,
  srun (new_ssess is_init me eph ts) ins = Ok (s, log) ->
  usable s = true ->
  (exists r, x_remote s = Some r /\ x_verified s = Some (r, binding s)) /\ binding_fresh s.
Proof.
  intros is_init me eph ts ins s log Hr Hu.
  destruct (srun_inv ins _ (all_new is_init me eph ts)) as (s0 & log0 & E & ((Hst & Hbf & Hg & _) & _) & _).
  rewrite E in Hr. injection Hr as <- <-. auto.
Qed.

(* The step that makes a session usable is the delivery of a message carrying
   TSig r "channel-binding" (this session's transcript hash) where r is the key
   reported afterwards: a timestamp signature (other purpose), a signature over
   another transcript (replay or splice) or by another key cannot do it,
   signatures being free constructors. *)
Theorem C03_only_by_signature : forall s i s' o w,
  all_inv s -> sstep s i = Ok (s', o, w) -> usable s = false -> usable s' = true ->
  exists wi r, i = InDeliver wi /\ x_remote s' = Some r /\
               presents wi (TSig r P_CB (binding s')) /\ binding_fresh s'.
Proof.
  intros s i s' o w (Hg & Hs & _) Hstep Hu Hu'.
  exact (so_gained _ _ _ _ (sstep_inv s i s' o w Hg Hs Hstep) Hu Hu').
Qed.

(* once usable, the authenticated key and the signed transcript never change, whatever arrives *)
Theorem C03_remote_stable : forall s ins s' log,
  all_inv s -> srun s ins = Ok (s', log) -> usable s = true ->
  x_remote s' = x_remote s /\ binding s' = binding s /\ usable s' = true.
Proof.
  intros s ins s' log Hall Hr Hu. destruct (srun_inv ins s Hall) as (s0 & log0 & E & _ & _ & _ & _ & Hus).
  rewrite E in Hr. injection Hr as <- <-. exact (Hus Hu).
Qed.

(* application data is only ever handed out by a usable session *)
Theorem C03_app_needs_usable : forall s i s' pt w,
  all_inv s -> sstep s i = Ok (s', Some (XApp pt), w) -> usable s = true.
Proof.
  intros s i s' pt w (Hg & Hs & _) Hstep.
  now destruct (so_app _ _ _ _ (sstep_inv s i s' _ w Hg Hs Hstep) pt eq_refl).
Qed.

(* no input sequence makes a session panic *)
Theorem C03_no_panic : forall is_init me eph ts ins p,
  srun (new_ssess is_init me eph ts) ins <> Panic p.
Proof.
  intros. destruct (srun_inv ins _ (all_new is_init me eph ts)) as (s & log & -> & _). discriminate.
Qed.

(* purposes are separated *)
Theorem C03_purpose_separation : forall k m k' m', TSig k P_TS m <> TSig k' P_CB m'.
Proof. intros k m k' m' H. discriminate. Qed.

(* non-vacuity: two honest sessions, canonical exchange: each reports the other's key *)
Example C03_honest_pair :
  let i0 := new_ssess true 1 100 7 in
  let r0 := new_ssess false 2 101 8 in
  match xwrite_handshake i0 with
  | Ok (Some m0) =>
    match xdeliver r0 m0 with
    | Ok (r1, XReply (Some m1)) =>
      match xdeliver i0 m1 with
      | Ok (i1, XReply (Some m2)) =>
        match xdeliver r1 m2 with
        | Ok (r2, XReply (Some m3)) =>
          match xdeliver i1 m3 with
          | Ok (i2, XReply None) =>
              xis_ready i2 = true /\ xis_ready r2 = true /\ x_remote i2 = Some 2 /\ x_remote r2 = Some 1
          | _ => False end
        | _ => False end
      | _ => False end
    | _ => False end
  | _ => False end.
Proof. vm_compute. repeat split; reflexivity. Qed.

Print Assumptions C03_gate.
Print Assumptions C03_only_by_signature.
Print Assumptions C03_remote_stable.
Print Assumptions C03_app_needs_usable.
Print Assumptions C03_no_panic.
