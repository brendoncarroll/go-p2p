(* C18 — The Kademlia cache is a faithful bounded map that sheds the farthest first. *)
From P2PV Require Import Lib.Base Model.Distance Model.Cache
  Proofs.CacheP Proofs.CacheP2 Proofs.CacheP3 Proofs.CacheP4.
Open Scope Z_scope.

(* every configuration the constructor accepts, every operation history, every oracle *)
Theorem C18_no_panic : forall L mx mn c0 ops,
  new_cache L mx mn = Ok c0 -> forall s, run c0 ops <> Panic s.
Proof. intros L mx mn c0 ops H s. exact (BaseP.sure_no_panic _ _ s (run_inv ops c0 (new_cache_inv _ _ _ _ H))). Qed.

Theorem C18_count_exact : forall L mx mn c, reachable L mx mn c -> c_count c = lenZ (contents c).
Proof. intros L mx mn c H. exact (inv_count c (reachable_inv _ _ _ _ H)). Qed.

Theorem C18_bounded : forall L mx mn c, reachable L mx mn c -> c_count c <= c_max c.
Proof. intros L mx mn c H. exact (inv_bounded c (reachable_inv _ _ _ _ H)). Qed.

(* refinement to a map, pointwise in the looked-up key: after any operation the
   cache answers lookups as the abstract map updated by that operation's reported
   result; Get returns the value of the latest entry stored under the key *)
Theorem C18_refines_map : forall L mx mn c o orc c' r,
  reachable L mx mn c -> step c o orc = Ok (c', r) ->
  (forall k, lookup c' k = spec_after c o r k) /\
  (forall k, get c' k = option_map e_val (lookup c' k)) /\
  reachable L mx mn c'.
Proof.
  intros L mx mn c o orc c' r Hr Hs.
  destruct (BaseP.sure_ok _ _ _ (step_correct c o orc (reachable_inv _ _ _ _ Hr)) Hs) as (_ & Hspec & _).
  split; [exact Hspec|]. split; [reflexivity|]. exact (reachable_step _ _ _ _ _ _ _ _ Hr Hs).
Qed.

(* an entry disappears only by Delete, by expiring (and then it is in Expire's
   output), or by being reported as the eviction victim *)
Theorem C18_no_silent_loss : forall L mx mn c o orc c' r k e,
  reachable L mx mn c -> step c o orc = Ok (c', r) ->
  lookup c k = Some e -> lookup c' k = None ->
  o = ODel k \/
  (exists now, o = OExpire now /\ is_expired now e = true /\
               r = RExpire (filter (is_expired now) (contents c)) /\
               In e (filter (is_expired now) (contents c))) \/
  (exists ev added, r = RPut (Some ev) added /\ e_key ev = k).
Proof. intros L mx mn c o orc c' r k e Hr. exact (no_silent_loss c o orc c' r k e (reachable_inv _ _ _ _ Hr)). Qed.

(* eviction: the victim was stored, comes from the farthest bucket above its
   minimum (every farther bucket is within its minimum afterwards), is the newest
   entry of its bucket, and the cache is exactly full afterwards *)
Theorem C18_victim_farthest : forall L mx mn c k fn orc c' ev added,
  reachable L mx mn c -> fn_keeps_key k fn c ->
  update c k fn orc = Ok (c', (Some ev, added)) ->
  (if bytes_eqb k (e_key ev) then fn (lookup c k) = ev else lookup c (e_key ev) = Some ev) /\
  added = negb (bytes_eqb k (e_key ev)) /\
  c_count c' = c_max c /\
  (forall m b', (m < bidx c (e_key ev))%nat -> nth_error (c_buckets c') m = Some b' ->
                lenZ (b_ents b') <= c_minpb c) /\
  (forall x, lookup c' (e_key x) = Some x -> bidx c (e_key x) = bidx c (e_key ev) ->
             e_created x <= e_created ev).
Proof.
  intros L mx mn c k fn orc c' ev added Hr Hk Hu.
  destruct (BaseP.sure_ok _ _ _ (update_correct c k fn orc (reachable_inv _ _ _ _ Hr) Hk) Hu) as (_ & _ & Hv).
  exact Hv.
Qed.

(* expiry removes exactly the entries past their time (non-zero ExpiresAt before
   now), reports exactly those, and leaves a cache on which everything above still holds *)
Theorem C18_expire_exact : forall L mx mn c now c' out,
  reachable L mx mn c -> expire c now = (c', out) ->
  out = filter (is_expired now) (contents c) /\
  contents c' = filter (fun e => negb (is_expired now e)) (contents c) /\
  inv c'.
Proof.
  intros L mx mn c now c' out Hr He.
  destruct (expire_correct c now c' out (reachable_inv _ _ _ _ Hr) He) as (A & B & C & _). auto.
Qed.

(* non-vacuity: a reachable full cache where an eviction happens *)
Example C18_nonvacuous :
  exists c0 c c' ev, new_cache [0%N] 2 0 = Ok c0 /\
    run c0 [(OPut [128%N] [1%N] 1 0, []); (OPut [64%N] [2%N] 2 0, [])] = Ok c /\
    update c [1%N] (put_fn [1%N] [3%N] 3 0) [128%N] = Ok (c', (Some ev, true)) /\
    e_key ev = [128%N] /\ c_count c' = 2.
Proof.
  do 4 eexists.
  split; [vm_compute; reflexivity|]. split; [vm_compute; reflexivity|].
  split; [vm_compute; reflexivity|]. split; reflexivity.
Qed.

Print Assumptions C18_no_panic.
Print Assumptions C18_count_exact.
Print Assumptions C18_bounded.
Print Assumptions C18_refines_map.
Print Assumptions C18_no_silent_loss.
Print Assumptions C18_victim_farthest.
Print Assumptions C18_expire_exact.
