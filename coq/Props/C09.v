(* C09 — MTU is honest: anything up to MTU is sendable intact, anything above is refused. *)
From P2PV Require Import Lib.Base Lib.Varint Model.Mux Model.Frag Model.Mbapp Model.Stack
  Proofs.FragP Proofs.StackP.
Open Scope N_scope.

(* For every stack of layers (multiplexer channels of any kind and identifier,
   fragmenting and message-box layers of any configured MTU, P2PKE, multi-transport
   minimum, pass-through wrappers) in any order and nesting depth, over every base
   MTU, and every payload:
   - a payload no longer than the MTU the stack reports is accepted by every layer
     and every message that reaches the base transport fits the base MTU;
   - a longer payload is refused with the MTU error (the result is the error,
     no wire message is produced). *)
Theorem C09_stack_honest : forall st base p, wf_stack st base ->
  ((Z.of_N (lenN p) <= stack_mtu st base)%Z ->
     exists ws, stack_send st base p = Ok ws /\ Forall (fun w => (Z.of_N (lenN w) <= base)%Z) ws) /\
  ((stack_mtu st base < Z.of_N (lenN p))%Z -> stack_send st base p = Err E_MTU).
Proof. exact stack_honest. Qed.

(* the fragmenting layers deliver the payload complete: the fragments are the
   consecutive chunks of the payload (reassembly is C10) *)
Theorem C09_frag_covers : forall inner cfg id payload,
  (1 <= under_mtu inner)%Z -> (Z.of_N (lenN payload) <= frag_mtu inner cfg)%Z ->
  let cs := chunks (Z.to_nat (under_mtu inner)) payload in
  frag_tell inner cfg id payload = Ok (fragments id cs) /\ concat cs = payload /\ lenN cs <= 255 /\
  Forall (fun c => Z.of_N (lenN c) <= under_mtu inner)%Z cs.
Proof. exact frag_tell_ok. Qed.

(* the reported MTU of a fragmenting layer never promises more than 255 parts *)
Theorem C09_frag_mtu_cap : forall inner cfg, (1 <= under_mtu inner)%Z ->
  (frag_mtu inner cfg <= 255 * under_mtu inner)%Z /\ (frag_mtu inner cfg <= Z.max cfg 0)%Z.
Proof. exact frag_mtu_cap. Qed.

(* non-vacuity: a four-layer stack over a 100-byte transport; its MTU, a payload
   of exactly that size splitting into 255 wire messages that all fit, and one
   byte more refused *)
Definition ex_stack : list layer :=
  [LMux KString (CStr [97; 98]); LFrag 65536 0; LMux KU16 (CInt 7); LId].
Example C09_nonvacuous :
  wf_stack ex_stack 100 /\ stack_mtu ex_stack 100 = 21162%Z /\
  (match stack_send ex_stack 100 (repeat 7 (N.to_nat 21162)) with
   | Ok ws => lenN ws = 255 /\ forallb (fun w => lenN w <=? 100) ws = true
   | _ => False end) /\
  stack_send ex_stack 100 (repeat 7 (N.to_nat 21163)) = Err E_MTU.
Proof.
  split; [cbn; repeat split; vm_compute; congruence|].
  split; [vm_compute; reflexivity|]. split; vm_compute; [split; reflexivity|reflexivity].
Qed.

Print Assumptions C09_stack_honest.
Print Assumptions C09_frag_covers.
Print Assumptions C09_frag_mtu_cap.
