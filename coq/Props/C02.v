(* C02 — Secure channel delivers only authentic peer plaintexts, at most once
   (session level: every input sequence to one session). *)
From P2PV Require Import Lib.Base Model.Handshake Model.Session Proofs.SessionP Proofs.SessionP2.
Open Scope N_scope.

(* at most once: in any history the counters accepted as application data are
   pairwise distinct, each was new when accepted and is rejected ever after *)
Theorem C02_at_most_once : forall is_init me eph ts ins s log,
  srun (new_ssess is_init me eph ts) ins = Ok (s, log) ->
  NoDup (flat_map app_counter log) /\
  forall h, In h (flat_map app_counter log) -> memN h (x_seen s) = true.
Proof.
  intros is_init me eph ts ins s log Hr.
  destruct (srun_inv ins _ (all_new is_init me eph ts)) as (s0 & log0 & E & _ & Hnd & Happ & _).
  rewrite E in Hr. injection Hr as <- <-. split; [exact Hnd|]. intros h Hh. now destruct (Happ h Hh).
Qed.

(* what is handed to the application is the plaintext of an AEAD under this
   session's inbound key and the header counter, accepted by a usable session *)
Theorem C02_app_is_authenticated_ciphertext : forall s i s' pt w,
  all_inv s -> sstep s i = Ok (s', Some (XApp pt), w) ->
  usable s = true /\
  exists wi h, i = InDeliver wi /\ wi = WC h (TAead (kin s) h pt) /\ 4 <= h /\
               memN h (x_seen s) = false /\ memN h (x_seen s') = true.
Proof.
  intros s i s' pt w (Hg & Hs & _) Hstep.
  destruct (so_app _ _ _ _ (sstep_inv s i s' _ w Hg Hs Hstep) pt eq_refl) as (Hu & h & Hi & H4 & Hn & Hm).
  split; [exact Hu|]. exists (WC h (TAead (kin s) h pt)), h. auto.
Qed.

(* no two ciphertexts under the same key and counter: the counters a session uses
   for Send are strictly increasing and start at 16, above the counters 2 and 3
   used once each by the handshake under the same keys; and no plaintext leaves
   a session except inside an AEAD under its outbound key *)
Theorem C02_counters_increasing : forall ins s s' log,
  all_inv s -> srun s ins = Ok (s', log) -> xcan_send s = true ->
  increasing_from (x_nonce s) (flat_map send_counter log) /\ 16 <= x_nonce s.
Proof.
  intros ins s s' log (_ & (Hsn & _) & _) Hr Hcs.
  split; [exact (send_counters_increasing ins s s' log Hr Hcs)|now apply Hsn].
Qed.

Theorem C02_send_is_aead : forall s pt s' o w,
  all_inv s -> sstep s (InSend pt) = Ok (s', o, Some w) ->
  exists c, w = WC (c mod 2 ^ 32) (TAead (kout s) c pt) /\ c = x_nonce s /\ 16 <= c.
Proof.
  intros s pt s' o w (_ & (Hsn & _) & _) Hstep%sstep_effect.
  inversion Hstep as [| | |pt' Hlim Hcs]; subst. exists (x_nonce s). auto.
Qed.

(* non-vacuity: a replayed ciphertext is dropped, a fresh one accepted *)
Example C02_nonvacuous :
  let i0 := new_ssess true 1 100 7 in
  let r0 := new_ssess false 2 101 8 in
  match xwrite_handshake i0 with
  | Ok (Some m0) =>
    match xdeliver r0 m0 with
    | Ok (r1, XReply (Some m1)) =>
      match xdeliver i0 m1 with
      | Ok (i1, XReply (Some m2)) =>
        match xdeliver r1 m2 with
        | Ok (r2, _) =>
          match xsend r2 (TAtom 42) with
          | Some (r3, c) =>
              match xdeliver i1 c with
              | Ok (i2, XApp (TAtom 42)) =>
                  match xdeliver i2 c with Ok (_, XDrop) => x_nonce i2 = 16 | _ => False end
              | _ => False end
          | None => False end
        | _ => False end
      | _ => False end
    | _ => False end
  | _ => False end.
Proof. vm_compute. reflexivity. Qed.

Print Assumptions C02_at_most_once.
Print Assumptions C02_app_is_authenticated_ciphertext.
Print Assumptions C02_counters_increasing.
Print Assumptions C02_send_is_aead.
