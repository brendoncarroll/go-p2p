(* C15 — Multiplexed channels are isolated and framing is unambiguous. *)
From P2PV Require Import Lib.Base Lib.Varint Model.Mux Proofs.MuxP.
Open Scope N_scope.

(* framing then unframing returns the same channel and payload, for every
   channel identifier of the kind and every payload (including empty) *)
Theorem C15_roundtrip : forall k c x,
  valid_chan k c = true -> unframe k (frame k c x) = Ok (c, x).
Proof. exact roundtrip. Qed.

(* two different (channel, payload) pairs never produce the same bytes *)
Theorem C15_injective : forall k c c' x x',
  valid_chan k c = true -> valid_chan k c' = true ->
  frame k c x = frame k c' x' -> c = c' /\ x = x'.
Proof. exact injective. Qed.

(* the headers form a prefix-free code *)
Theorem C15_prefix_free : forall k c c' r r',
  valid_chan k c = true -> valid_chan k c' = true ->
  header k c ++ r = header k c' ++ r' -> c = c' /\ r = r'.
Proof. exact prefix_free. Qed.

(* for every set of open channels a frame made on c reaches the swarm of c if
   open, is dropped otherwise *)
Theorem C15_isolation : forall k opened c x,
  valid_chan k c = true ->
  dispatch k opened (frame k c x) = if existsb (chan_eqb c) opened then Some (c, x) else None.
Proof. exact isolation. Qed.

(* ... and never reaches a swarm opened for a different channel, payload unchanged *)
Theorem C15_never_cross : forall k opened c x c' y,
  valid_chan k c = true -> dispatch k opened (frame k c x) = Some (c', y) ->
  c' = c /\ y = x /\ In c opened.
Proof. exact never_cross. Qed.

(* demultiplexing arbitrary bytes never panics (shared with C08) *)
Theorem C15_no_panic : forall k b site, unframe k b <> Panic site.
Proof. exact unframe_no_panic. Qed.

(* what is handed up is a suffix of what arrived: nothing is invented *)
Theorem C15_body_is_suffix : forall k b c body,
  unframe k b = Ok (c, body) -> exists h, b = h ++ body.
Proof. exact unframe_suffix. Qed.

(* non-vacuity: the hypotheses hold for extreme identifiers of every kind *)
Example C15_valid_examples :
  valid_chan KString (CStr []) = true /\
  valid_chan KString (CStr [0; 255; 97]) = true /\
  valid_chan KVarint (CInt (2 ^ 64 - 1)) = true /\
  valid_chan KU16 (CInt 65535) = true /\
  valid_chan KU32 (CInt (2 ^ 32 - 1)) = true /\
  valid_chan KU64 (CInt (2 ^ 64 - 1)) = true /\
  unframe KVarint (frame KVarint (CInt (2 ^ 64 - 1)) [1; 2]) = Ok (CInt (2 ^ 64 - 1), [1; 2]) /\
  dispatch KString [CStr [97]; CStr [97; 0]] (frame KString (CStr [97; 0]) []) = Some (CStr [97; 0], []).
Proof. vm_compute. repeat split; reflexivity. Qed.

Print Assumptions C15_roundtrip.
Print Assumptions C15_injective.
Print Assumptions C15_prefix_free.
Print Assumptions C15_isolation.
Print Assumptions C15_never_cross.
Print Assumptions C15_no_panic.
Print Assumptions C15_body_is_suffix.
