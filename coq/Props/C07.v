(* C07 — Channels establish, converge and keep working across rotation and restart.
   PARTIAL.  Proved: at the session level, liveness over all adversarial prefixes
   (C06: every schedule over a pair's own messages, then a fair suffix, reaches
   ready and data flows); at the channel level, establishment from ANY pair of
   reachable channel states in which no handshake is in progress (whatever
   sessions they remember), convergence of a simultaneous open, and the facts
   about expiry, rotation and Send below.  Not proved: convergence of two whole
   channels from states with half-finished handshakes left by an adversarial
   prefix; that is explored on the model-tied harness (not a proof). *)
From P2PV Require Import Lib.Base Model.Handshake Model.Channel Proofs.HandshakeP Proofs.ChannelP Proofs.ChannelNP Proofs.ChannelLiveP Model.Timer Proofs.TimerP.
From Coq Require Import Lia ZifyBool ZifyN.
Open Scope N_scope.

(* session level: whatever happened to the handshake messages of a pair (lost,
   reordered, duplicated, reflected, data overtaking RespDone), two rounds of
   retransmission bring both sessions to ready *)
Theorem C07_session_recovers : forall acts p,
  run init_pair acts = Ok p -> under_limit p ->
  exists p', fair_suffix p = Ok p' /\ is_ready (p_i p') = true /\ is_ready (p_r p') = true.
Proof.
  intros acts p Hp Hu. destruct (run_inv acts init_pair inv_init) as [_ B].
  destruct (recovers p (proj1 (B p Hp)) Hu) as (p' & E & _ & _ & Ri & Rr). eauto.
Qed.

(* a session that keeps receiving is not torn down for idleness: the current
   session survives the expiry step unless it is past RejectAfterTime or nothing
   was received through it for longer than KeepAliveTimeout *)
Theorem C07_no_idle_teardown : forall ch se,
  ch_s1 ch = Some se -> expired se = false -> (ch_lr ch <= KEEPALIVE)%Z ->
  ch_s1 (expire ch) = Some se.
Proof.
  intros ch se E1 Hx Hl. rewrite (proj1 (expire_spec ch)), E1, Hx.
  destruct (Z.ltb_spec KEEPALIVE (ch_lr ch)); [lia|reflexivity].
Qed.

(* application data received through the current session refreshes lastReceived *)
Theorem C07_receive_refreshes : forall ch, ch_lr (set_lr ch 0) = 0%Z.
Proof. reflexivity. Qed.

(* rotation: when the prospective session is promoted the old current session
   stays available as the previous one (it still decrypts what is in flight) *)
Theorem C07_rotation_keeps_previous : forall accept ch ch',
  on_ready accept ch = (ch', true) -> ch_s0 ch' = ch_s1 ch /\ ch_s1 ch' = ch_s2 ch /\ ch_s2 ch' = None.
Proof.
  intros accept ch ch'. rewrite on_ready_eq. cbn [slot].
  destruct (ch_s2 ch) as [se|]; [cbv zeta; destruct (check_key _ _ _)|]; try discriminate.
  intros [= <-]. cbn. auto.
Qed.

(* Send goes out whenever a current session exists after the expiry step and has not hit its message limit *)
Theorem C07_send_when_current : forall ch se,
  ch_s1 (expire ch) = Some se -> c_ready se = true -> s_nonce (cs se) < MAX_NONCE ->
  exists ch' w, chan_send ch = (ch', Some w).
Proof.
  intros ch se E1 Hr Hn. rewrite chan_send_eq, E1. unfold send.
  destruct (N.leb_spec MAX_NONCE (s_nonce (cs se))); [lia|].
  unfold c_ready, is_ready in Hr. apply Bool.andb_true_iff in Hr as [Hs _]. rewrite Hs. cbn [negb]. eauto.
Qed.

(* the rekey timer that a blocked Send arms creates the initiator session and emits its InitHello *)
Theorem C07_rekey_starts_handshake : forall fA rank ts A,
  ch_s2 (expire A) = None ->
  ch_s2 (fst (chan_rekey fA rank ts A)) = Some (init0 fA rank ts) /\
  In (emit (fst (chan_rekey fA rank ts A)) (init0 fA rank ts) MIH) (snd (chan_rekey fA rank ts A)).
Proof. exact rekey_starts. Qed.

(* From ANY two channel states satisfying the invariant of all reachable states
   (ChannelNP.InvP), with no handshake in progress at the peer — whatever previous
   and current sessions either side still holds, of whatever age — the four
   handshake messages delivered in order over a reliable network establish a new
   current session on both sides bound to each other's keys, the pending Send goes
   out through it and the peer hands its data up.  [established] spells out the
   six steps as equations on chan_deliver / chan_send. *)
Theorem C07_channel_establishes : forall accept A B fA fB f1 f2 f3 f4 rank ts,
  InvP accept A -> InvP accept B ->
  ch_s2 A = Some (init0 fA rank ts) -> bound_ok accept A (ch_key B) ->
  ch_s2 B = None -> fresh_tag B fB -> orank_ne (ch_s0 B) rank -> orank_ne (ch_s1 B) rank ->
  ts <? ch_rts B = false -> bound_ok accept B (ch_key A) ->
  exists B1, chan_deliver accept fB B (emit A (init0 fA rank ts) MIH) =
               Ok (B1, DSend (emit B1 (resp1 fB fA (ch_key A) rank ts) MRH)) /\
             established accept A B1 fA fB f1 f2 f3 f4 rank ts.
Proof. exact establish_inv. Qed.

(* simultaneous open: both sides started a handshake and the InitHellos cross.
   The side whose session id ranks lower keeps its initiator session (and repeats
   its InitHello), the other gives its own up for a responder session, and the
   handshake completes as above: both converge on ONE session pair. *)
Theorem C07_simultaneous_open_converges : forall accept A B fA fX fB f0 f1 f2 f3 f4 rA tsA rB tsB,
  rA < rB ->
  ch_s2 A = Some (init0 fA rA tsA) -> otag_ne (ch_s0 A) fA -> otag_ne (ch_s1 A) fA ->
  oready (ch_s0 A) -> oready (ch_s1 A) -> bound_ok accept A (ch_key B) ->
  orank_ne (ch_s0 A) rB -> orank_ne (ch_s1 A) rB -> tsB <? ch_rts A = false ->
  ch_s2 B = Some (init0 fX rB tsB) -> orank_ne (ch_s0 B) rA -> orank_ne (ch_s1 B) rA ->
  otag_ne (ch_s0 B) fB -> otag_ne (ch_s1 B) fB -> tsA <? ch_rts B = false -> bound_ok accept B (ch_key A) ->
  chan_deliver accept f0 A (emit B (init0 fX rB tsB) MIH) = Ok (A, DSend (emit A (init0 fA rA tsA) MIH)) /\
  exists B1, chan_deliver accept fB B (emit A (init0 fA rA tsA) MIH) =
               Ok (B1, DSend (emit B1 (resp1 fB fA (ch_key A) rA tsA) MRH)) /\
             established accept A B1 fA fB f1 f2 f3 f4 rA tsA.
Proof. exact simultaneous_open_converges. Qed.

(* the same, starting from the pending Send itself: no current session survives the
   expiry step and no handshake is in progress, so the rekey timer the Send arms creates
   the initiator session and emits the InitHello; then as above *)
Theorem C07_pending_send_completes : forall accept A B fA fB f1 f2 f3 f4 rank ts,
  InvP accept A -> InvP accept B -> fresh_tag A fA -> ch_s2 (expire A) = None ->
  bound_ok accept A (ch_key B) ->
  ch_s2 B = None -> fresh_tag B fB -> orank_ne (ch_s0 B) rank -> orank_ne (ch_s1 B) rank ->
  ts <? ch_rts B = false -> bound_ok accept B (ch_key A) ->
  let A1 := fst (chan_rekey fA rank ts A) in
  In (emit A1 (init0 fA rank ts) MIH) (snd (chan_rekey fA rank ts A)) /\
  exists B1, chan_deliver accept fB B (emit A1 (init0 fA rank ts) MIH) =
               Ok (B1, DSend (emit B1 (resp1 fB fA (ch_key A1) rank ts) MRH)) /\
             established accept A1 B1 fA fB f1 f2 f3 f4 rank ts.
Proof. exact pending_send_completes. Qed.

(* retransmission: every firing of the handshake timer re-sends the message the
   prospective session is waiting to have answered, as long as that session has not
   expired (with C07_timer_keeps_firing: until it is answered) *)
Theorem C07_handshake_timer_retransmits : forall accept ch se,
  InvP accept ch -> ch_s2 ch = Some se -> expired se = false -> awaiting se ->
  exists k, write_handshake (cs se) = Ok (Some k) /\
            ch_s2 (fst (chan_handshake ch)) = Some se /\
            In (emit (fst (chan_handshake ch)) se k) (snd (chan_handshake ch)).
Proof. exact handshake_timer_retransmits. Qed.

(* the hypotheses of C07_channel_establishes are met by states that carry old sessions *)
Example C07_establish_not_vacuous :
  let old (t : N) (ini : bool) (k : N) := mkCS (with_hs (new_sess ini) 4 None 40) t (Some (t + 100)) (Some k) t 5 30 in
  let A := mkCh 1 (Some (old 10 true 2)) (Some (old 11 false 2)) (Some (init0 12 77 9)) (Some 2) 5 100 in
  let B := mkCh 2 (Some (old 20 true 1)) (Some (old 21 false 1)) None (Some 1) 5 100 in
  InvP (fun _ => true) A /\ InvP (fun _ => true) B /\
  bound_ok (fun _ => true) A 2 /\ bound_ok (fun _ => true) B 1 /\ fresh_tag B 22 /\
  orank_ne (ch_s0 B) 77 /\ orank_ne (ch_s1 B) 77 /\ (9 <? ch_rts B) = false.
Proof. exact establish_not_vacuous. Qed.

(* The timer behind retransmission (p/p2pke/timer.go).
   A Reset made by the timer's own callback is not lost: an armed timer whose
   callback re-arms it b more times fires exactly b+1 times, then is idle.  This is
   what keeps handshake messages being retransmitted until they are answered. *)
Theorem C07_timer_keeps_firing : forall b t fuel, t_pending t = true -> t_budget t = b -> (b < fuel)%nat ->
  let t' := quiesce fuel t in t_fires t' = (t_fires t + S b)%nat /\ t_pending t' = false.
Proof. exact fires_until_budget_spent. Qed.

Theorem C07_timer_stopped_is_silent : forall t evs, t_pending t = false ->
  (forall e, In e evs -> e = TElapse \/ e = TStop) ->
  t_fires (trun t evs) = t_fires t /\ t_pending (trun t evs) = false.
Proof. exact stopped_never_fires. Qed.

Print Assumptions C07_session_recovers.
Print Assumptions C07_no_idle_teardown.
Print Assumptions C07_rotation_keeps_previous.
Print Assumptions C07_send_when_current.
Print Assumptions C07_rekey_starts_handshake.
Print Assumptions C07_channel_establishes.
Print Assumptions C07_simultaneous_open_converges.
Print Assumptions C07_timer_keeps_firing.
Print Assumptions C07_timer_stopped_is_silent.
Print Assumptions C07_pending_send_completes.
Print Assumptions C07_handshake_timer_retransmits.
