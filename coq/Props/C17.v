(* C17 — Keys and identities have one canonical, lossless encoding. *)
From P2PV Require Import Lib.Base Lib.Varint Lib.Der Lib.Base64 Model.Distance Proofs.DerP Proofs.Base64P.
Open Scope N_scope.

(* marshal then parse yields the same key: every algorithm identifier the decoder
   supports (valid_oid: >= 2 arcs, X.660 first/second-arc rule, arcs <= MaxInt32),
   every key body *)
Theorem C17_spki_roundtrip : forall oid data,
  valid_oid oid = true -> parse_spki (marshal_spki oid data) = Some (oid, data).
Proof. exact spki_roundtrip. Qed.

(* the error branch: an identifier that cannot be encoded marshals to nothing, which does not parse *)
Theorem C17_spki_invalid : forall oid data,
  encodable_oid oid = false -> marshal_spki oid data = [] /\ parse_spki [] = None.
Proof. intros oid data H. split; [exact (marshal_spki_invalid oid data H)|exact parse_spki_nil]. Qed.

(* two keys compare equal exactly when their encodings are equal *)
Theorem C17_equal_iff_encoding : forall o1 d1 o2 d2,
  valid_oid o1 = true -> valid_oid o2 = true ->
  (equal_keys o1 d1 o2 d2 = true <-> marshal_spki o1 d1 = marshal_spki o2 d2).
Proof. exact equal_iff_encoding. Qed.

(* the fingerprint H(MarshalPublicKey k) is a function of the key alone, for every hash H *)
Theorem C17_fingerprint_function_of_key : forall (H : bytes -> bytes) o1 d1 o2 d2,
  valid_oid o1 = true -> valid_oid o2 = true -> equal_keys o1 d1 o2 d2 = true ->
  H (marshal_spki o1 d1) = H (marshal_spki o2 d2).
Proof. exact fingerprint_function_of_key. Qed.

(* peer-id text round-trips ... *)
Theorem C17_peerid_roundtrip : forall id,
  wf_bytes id = true -> lenN id = PEER_ID_SIZE -> peerid_unmarshal (peerid_marshal id) = Some id.
Proof. exact peerid_roundtrip. Qed.

(* ... preserves byte order ... *)
Theorem C17_peerid_order : forall a b,
  length a = length b -> wf_bytes a = true -> wf_bytes b = true ->
  lex_compare (peerid_marshal a) (peerid_marshal b) = lex_compare a b.
Proof. exact encode_order. Qed.

(* ... and text that is not THE encoding of an id is rejected: wrong length,
   foreign symbols and non-zero trailing bits never yield some other identity *)
Theorem C17_peerid_rejects : forall t id,
  peerid_unmarshal t = Some id -> t = peerid_marshal id /\ wf_bytes id = true /\ lenN id = PEER_ID_SIZE.
Proof. exact peerid_rejects. Qed.

(* non-vacuity *)
Example C17_nonvacuous :
  valid_oid [1; 3; 101; 112] = true /\                                   (* Ed25519 *)
  parse_spki (marshal_spki [1; 3; 101; 112] [7; 8; 9]) = Some ([1; 3; 101; 112], [7; 8; 9]) /\
  valid_oid [2; 999; 2147483647] = true /\
  peerid_unmarshal (peerid_marshal (repeat 255 32)) = Some (repeat 255 32) /\
  peerid_unmarshal (repeat 33 43) = None.                               (* 43 x '!' *)
Proof. vm_compute. repeat split; reflexivity. Qed.

Print Assumptions C17_spki_roundtrip.
Print Assumptions C17_equal_iff_encoding.
Print Assumptions C17_fingerprint_function_of_key.
Print Assumptions C17_peerid_roundtrip.
Print Assumptions C17_peerid_order.
Print Assumptions C17_peerid_rejects.
