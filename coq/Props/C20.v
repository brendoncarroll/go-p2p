(* C20 — Iterative DHT operations are bounded, non-redundant and report truthfully.
   The network is an arbitrary responder (call index, contacted node) |-> answer. *)
From P2PV Require Import Lib.Base Model.Distance Model.Dht Proofs.DhtP Proofs.DhtP2.
Open Scope N_scope.

(* termination, for every responder and every set of initial peers over ids of
   the peer-id size (cyclic, self-referential, enormous or fabricated lists included) *)
Theorem C20_find_terminates : forall len resp initial target validate,
  resp_wf len resp -> nodes_wf len initial -> exists fuel, dht_find fuel resp initial target validate <> None.
Proof. intros *. apply (asks_once_terminates resp f_log), find_asks_once. Qed.
Theorem C20_join_terminates : forall len resp initial target addpeer,
  resp_wf len resp -> nodes_wf len initial -> exists fuel, dht_join fuel resp initial target addpeer <> None.
Proof. intros *. apply (asks_once_terminates resp j_log), join_asks_once. Qed.
Theorem C20_get_terminates : forall len resp initial key validate,
  resp_wf len resp -> nodes_wf len initial -> exists fuel, dht_get fuel resp initial key validate <> None.
Proof. intros *. apply (asks_once_terminates resp g_log), get_asks_once. Qed.
Theorem C20_put_terminates : forall len resp initial key,
  resp_wf len resp -> nodes_wf len initial -> exists fuel, dht_put fuel resp initial key <> None.
Proof. intros *. apply (asks_once_terminates resp p_log), put_asks_once. Qed.

(* find node: each id asked at most once (NoDup of the ask log, every entry of
   which is a genuine call); Closest is a nearest node among all nodes visited;
   Contacted counts the nodes that answered; no error iff the target was reached *)
Theorem C20_find_truthful : forall fuel resp initial target validate st vis,
  dht_find fuel resp initial target validate = Some (Ok (st, vis)) ->
  genuine resp (f_log st) /\ NoDup (asked (f_log st)) /\
  (forall c, f_closest st = Some c -> is_nearest target (n_id c) vis) /\
  (forall x, In x (asked (f_log st)) -> In x vis) /\
  f_contacted st = lenN (filter (fun p => a_ok (snd p)) (f_log st)) /\
  (find_err target st = false <-> exists c, f_closest st = Some c /\ n_id c = target).
Proof.
  intros * H. destruct (find_result _ _ _ _ _ _ _ H) as ((Hg & Hnd & Hsub) & Hn & Hcnt).
  split; [exact Hg|]. split; [exact Hnd|]. split.
  { intros c Hc. now rewrite Hc in Hn. }
  split; [exact Hsub|]. split; [exact Hcnt|].
  apply find_err_false.
Qed.

(* join: every visited node is asked exactly once, in visiting order; the added
   count is the number of asked nodes AddPeer accepted *)
Theorem C20_join_truthful : forall fuel resp initial target addpeer st vis,
  dht_join fuel resp initial target addpeer = Some (Ok (st, vis)) ->
  genuine resp (j_log st) /\ NoDup (asked (j_log st)) /\ asked (j_log st) = rev vis /\
  j_added st = lenN (filter addpeer (map fst (j_log st))).
Proof.
  intros * H. destruct (join_result _ _ _ _ _ _ _ H) as ((Hg & Hnd & _) & Hall & Hadd). auto.
Qed.

(* get: at most once; counts exact; Closest is a nearest responder; a reported
   value was returned by the contacted node From and passed Validate; an error
   exactly when no value is reported *)
Theorem C20_get_truthful : forall fuel resp initial key validate st vis,
  dht_get fuel resp initial key validate = Some (Ok (st, vis)) ->
  genuine resp (g_log st) /\ NoDup (asked (g_log st)) /\
  g_contacted st = lenN (g_log st) /\ g_responded st = lenN (responders (g_log st)) /\
  (forall c, g_closest st = Some c -> is_nearest key c (responders (g_log st))) /\
  (g_closest st = None -> responders (g_log st) = []) /\
  (get_err st = true -> g_value st = None) /\
  (forall f, g_from st = Some f ->
     exists nd a v, In (nd, a) (g_log st) /\ n_id nd = f /\ a_ok a = true /\
                    a_value a = Some v /\ validate v = true /\ g_value st = Some v).
Proof.
  intros * H. destruct (get_result _ _ _ _ _ _ _ H) as ((Hg & Hnd & _) & Hc & Hr & Hn & Hfn & Hfs).
  split; [exact Hg|]. split; [exact Hnd|]. split; [exact Hc|]. split; [exact Hr|].
  split; [intros x Hx; now rewrite Hx in Hn|]. split; [intros Hx; now rewrite Hx in Hn|].
  split; [|exact Hfs].
  unfold get_err. destruct (g_from st); [discriminate|]. intros _. now apply Hfn.
Qed.

(* put: at most once; Accepted is the number of DISTINCT nodes that accepted;
   Closest is a nearest accepting node; error exactly when below the effective minimum *)
Theorem C20_put_truthful : forall fuel resp initial key st vis,
  dht_put fuel resp initial key = Some (Ok (st, vis)) ->
  genuine resp (p_log st) /\ NoDup (asked (p_log st)) /\
  p_contacted st = lenN (p_log st) /\ p_responded st = lenN (responders (p_log st)) /\
  p_accepted st = lenN (accepters (p_log st)) /\ NoDup (accepters (p_log st)) /\
  (forall c, p_closest st = Some c -> is_nearest key c (accepters (p_log st))) /\
  (forall min, put_err min st = true <-> (Z.of_N (lenN (accepters (p_log st))) < eff_min min)%Z).
Proof.
  intros * H. destruct (put_result _ _ _ _ _ _ H) as ((Hg & Hnd & _) & Hc & Hr & Ha & Hn).
  split; [exact Hg|]. split; [exact Hnd|]. split; [exact Hc|]. split; [exact Hr|]. split; [exact Ha|].
  split; [now apply accepters_nodup|].
  split; [intros x Hx; now rewrite Hx in Hn|].
  intros mn. unfold put_err. rewrite Ha. apply Z.ltb_lt.
Qed.

(* no panic for any size of Initial, empty included *)
Theorem C20_no_panic : forall fuel resp initial key s,
  (forall validate, dht_find fuel resp initial key validate <> Some (Panic s)) /\
  (forall addpeer, dht_join fuel resp initial key addpeer <> Some (Panic s)) /\
  (forall validate, dht_get fuel resp initial key validate <> Some (Panic s)) /\
  dht_put fuel resp initial key <> Some (Panic s).
Proof. exact no_panic. Qed.

(* non-vacuity: a self-referential, cyclic responder (B names A and itself, A
   names B) — the design-time re-contact example — terminates with each asked once *)
Definition nA := mkNode [1] [10]. Definition nB := mkNode [2] [11].
Definition ex_resp : responder := fun _ nd =>
  if bytes_eqb (n_id nd) [2] then mkAns true [nA; nB] None true else mkAns true [nB] None true.
Example C20_nonvacuous :
  exists st vis, dht_put 10 ex_resp [nA; nB] [0] = Some (Ok (st, vis)) /\
                 asked (p_log st) = [[1]; [2]] /\ p_accepted st = 2 /\ put_err 0 st = false.
Proof. vm_compute. do 2 eexists. repeat split; reflexivity. Qed.

Print Assumptions C20_find_terminates.
Print Assumptions C20_put_terminates.
Print Assumptions C20_find_truthful.
Print Assumptions C20_join_truthful.
Print Assumptions C20_get_truthful.
Print Assumptions C20_put_truthful.
Print Assumptions C20_no_panic.
