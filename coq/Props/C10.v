(* C10 — Reassembly never invents or mixes messages (s/fragswarm and p/mbapp). *)
From P2PV Require Import Lib.Base Lib.Varint Model.Frag Model.Mbapp Proofs.FragP Proofs.MbappP.
Open Scope N_scope.

(* For every ledger of sent messages with distinct (source, id), every schedule
   of deliveries of genuine fragments of those messages from their true source
   (any order, any multiplicity, any omissions) interleaved with any cleanups of
   partial state: every payload handed up is exactly the payload of a ledger
   message of that source, and (no partial delivery) every fragment of that
   message had been delivered by then. *)
Theorem C10_reassembly_sound : forall L, NoDup (map s_key L) ->
  forall acts, Forall (ok_action L) acts ->
  forall src p seen, In (src, p, seen) (run_sched [] [] acts) ->
    exists m, In m L /\ s_src m = src /\ s_payload m = p /\
              forall f, In f (fragments (s_id m) (s_chunks m)) -> In (src, f) seen.
Proof. intros L Hnd acts Hall. exact (reassembly_sound L Hnd acts [] [] (inv_init L) Hall). Qed.

(* genuine fragments are what the sender model emits *)
Theorem C10_sender_emits_fragments : forall inner cfg id payload,
  (1 <= under_mtu inner)%Z -> (Z.of_N (lenN payload) <= frag_mtu inner cfg)%Z ->
  let cs := chunks (Z.to_nat (under_mtu inner)) payload in
  frag_tell inner cfg id payload = Ok (fragments id cs) /\ concat cs = payload /\ lenN cs <= 255 /\
  Forall (fun c => Z.of_N (lenN c) <= under_mtu inner)%Z cs.
Proof. exact frag_tell_ok. Qed.

(* non-vacuity: two interleaved 3-fragment messages from two sources, one
   fragment duplicated, delivered out of order *)
Definition mA := mkSent [48] 0 [[1; 2]; [3; 4]; [5]].
Definition mB := mkSent [49] 0 [[9; 9]; [8; 8]; [7]].
Definition fa i := nth i (fragments 0 (s_chunks mA)) [].
Definition fb i := nth i (fragments 0 (s_chunks mB)) [].
Definition ex_sched : list action :=
  [ADeliver [48] (fa 2); ADeliver [49] (fb 0); ADeliver [48] (fa 0); ADeliver [48] (fa 0);
   ADeliver [49] (fb 2); ADeliver [48] (fa 1); ADeliver [49] (fb 1)].
Example C10_nonvacuous :
  NoDup (map s_key [mA; mB]) /\ Forall (ok_action [mA; mB]) ex_sched /\
  map (fun d => (fst (fst d), snd (fst d))) (run_sched [] [] ex_sched) = [([48], [1; 2; 3; 4; 5]); ([49], [9; 9; 8; 8; 7])].
Proof.
  split; [cbn; apply NoDup_cons; [intros [H|[]]; discriminate|apply NoDup_cons; [intros []|constructor]]|]. split; [|vm_compute; reflexivity].
  assert (GA : forall i, (i < 3)%nat -> genuine [mA; mB] [48] (fa i)).
  { intros i Hi. apply (genuine_nth _ mA); [now left|split; [reflexivity|discriminate]|exact Hi]. }
  assert (GB : forall i, (i < 3)%nat -> genuine [mA; mB] [49] (fb i)).
  { intros i Hi. apply (genuine_nth _ mB); [right; now left|split; [reflexivity|discriminate]|exact Hi]. }
  repeat constructor; cbn [ok_action]; (apply GA || apply GB); repeat constructor.
Qed.

(* For every ledger of sent messages with distinct (source, origin time, counter,
   ask/reply bits), whatever part size each sender used, every schedule of
   genuine packets of those messages from their true sources (any order, any
   multiplicity, any omissions) interleaved with any cleanups of partial state:
   every payload the collector hands on is exactly the payload of a ledger
   message of that source. *)
Theorem C10_mbapp_reassembly_sound : forall L mtu, NoDup (map ms_key L) ->
  forall acts, Forall (mb_ok_action L) acts ->
  forall src p, In (src, p) (mb_run_sched mtu [] acts) ->
    exists m, In m L /\ ms_src m = src /\ ms_payload m = p.
Proof. intros L mtu Hnd acts Hall. exact (mb_reassembly_sound L mtu Hnd acts [] (mb_inv_init L) Hall). Qed.

(* what the sender emits for a message is genuine for it (the header survives
   the wire: parse_mb (encode_header h ++ body) = (h, body)) *)
Theorem C10_mbapp_sender_genuine : forall inner (h0 : mb_header) src payload pkts,
  (1 <= part_size inner)%Z ->
  h_origin h0 < 2 ^ 32 -> h_counter h0 < 2 ^ 32 -> h_timeout h0 < 2 ^ 32 -> h_err h0 < 256 ->
  lenN payload < 2 ^ 32 -> lenN (chunks (Z.to_nat (part_size inner)) payload) < 2 ^ 16 ->
  mb_send inner h0 payload = Ok pkts ->
  let m := mkMs src (h_origin h0) (h_counter h0) (h_ask h0) (h_reply h0) (Z.to_nat (part_size inner)) payload in
  wf_ms m /\ forall pkt, In pkt pkts -> genuine_mb [m] src pkt.
Proof. exact mb_send_genuine. Qed.

Theorem C10_mbapp_header_roundtrip : forall h body, hdr_in_range h -> parse_mb (encode_header h ++ body) = Ok (h, body).
Proof. exact parse_encode. Qed.

(* non-vacuity: a 5-byte message in 2-byte parts, sent by the model sender,
   delivered last part first with a duplicate *)
Definition mb_h0 := mkHdr false false 0 77 3 0 0 0 9.
Example C10_mbapp_nonvacuous :
  match mb_send 26 mb_h0 [1; 2; 3; 4; 5] with
  | Ok [p0; p1; p2] =>
      mb_run_sched 65536 [] [MDeliver [48] p2; MDeliver [48] p0; MDeliver [48] p0; MDeliver [48] p1] = [([48], [1; 2; 3; 4; 5])]
  | _ => False
  end.
Proof. vm_compute. reflexivity. Qed.

Print Assumptions C10_reassembly_sound.
Print Assumptions C10_mbapp_reassembly_sound.
Print Assumptions C10_mbapp_sender_genuine.
Print Assumptions C10_mbapp_header_roundtrip.
Print Assumptions C10_sender_emits_fragments.
