(* C11 — An Ask returns its own handler's answer or an error, never another's. *)
From P2PV Require Import Lib.Base Model.Hub Model.AskTable Proofs.HubP Proofs.AskTableP.

(* The ask hub every ask-capable swarm serves through: over every accepted event
   list, an Ask (Deliver) that returns success was handed to exactly one handler
   call and returns after that handler call has finished (the answer it returns
   is the one that call wrote: req.n is assigned before done is closed) *)
Theorem C11_answer_is_own_handlers : forall pre d h, hrun hub0 (pre ++ [HDlvRetOk d]) = Some h ->
  exists r, In (HMeet r d) pre /\ In (HCbEnd r) pre /\ (count (is_meet_d d) pre <= 1)%nat.
Proof.
  intros pre d h H. destruct (ok_after_callback pre d h H) as (r & A & B). exists r. split; [exact A|split; [exact B|]].
  destruct (hrun_split _ _ _ _ H) as (h1 & E & _).
  exact (proj1 (at_most_one_meet pre h1 E) d).
Qed.

(* a handler never serves two requests in one call, and a failed Ask was seen by no handler *)
Theorem C11_failed_ask_unseen : forall pre post d ce h,
  hrun hub0 (pre ++ HDlvRetErr d ce :: post) = Some h ->
  count (is_meet_d d) (pre ++ HDlvRetErr d ce :: post) = 0%nat.
Proof. exact err_never_met. Qed.

(* the message-box swarm's table of outstanding asks: a reply completes exactly
   the ask filed under its (address, origin time, counter) and no other *)
Theorem C11_reply_completes_own_ask : forall t id resp err t' req resp' err',
  t_reply t id resp err = (t', Some (req, resp', err')) ->
  (exists a, t_get t id = Some a /\ a_req a = req /\ a_state a = Pending) /\ resp' = resp /\ err' = err /\
  t_get t' id = None /\ (forall id2, id2 <> id -> t_get t' id2 = t_get t id2).
Proof. exact reply_completes_own_ask. Qed.

Theorem C11_stray_reply_ignored : forall t id resp err, t_get t id = None -> t_reply t id resp err = (t, None).
Proof. exact stray_reply_ignored. Qed.

(* success is never a truncated answer nor an answer carrying an error code *)
Theorem C11_no_truncated_success : forall cap resp err r, ask_result cap resp err = OAnswer r ->
  r = resp /\ (lenN resp <= cap)%N /\ err = 0%N.
Proof. exact ask_result_success. Qed.

Print Assumptions C11_answer_is_own_handlers.
Print Assumptions C11_failed_ask_unseen.
Print Assumptions C11_reply_completes_own_ask.
Print Assumptions C11_no_truncated_success.
