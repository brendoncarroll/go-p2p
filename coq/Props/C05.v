(* C05 — A channel talks only to an accepted key, and to the same key forever. *)
From P2PV Require Import Lib.Base Model.Handshake Model.Channel Proofs.ChannelP.
Open Scope N_scope.

(* For EVERY acceptance predicate, every channel and EVERY history of operations
   on it (deliveries of arbitrary wire messages from any sessions of any
   channels, in any order and multiplicity, whichever side initiated; rekey and
   handshake timer firings; sends; ageing), in every state along the history:
   - the previous and the current session are ready sessions whose remote key is
     the channel's bound key, the bound key is one the predicate accepted, and the
     prospective session is not ready (it cannot carry application data);
   - a bound key never changes (mono);
   - application data is only ever handed up while the channel is bound to an
     accepted key. *)
Theorem C05_history : forall (accept : N -> bool) key ops ch' r,
  In (ch', r) (ctrace accept (new_chan key) ops) ->
  Inv accept ch' /\
  match r with Some r => app_ok accept ch' r | None => True end.
Proof. exact ctrace_new. Qed.

(* once bound, always bound to the same key: from any state of the invariant *)
Theorem C05_same_key_forever : forall (accept : N -> bool) ch ops ch' r k,
  Inv accept ch -> ch_remote ch = Some k ->
  In (ch', r) (ctrace accept ch ops) -> ch_remote ch' = Some k.
Proof.
  intros accept ch ops ch' r k HI Hk Hin.
  destruct (ctrace_good accept ops ch HI ch' r Hin) as (_ & M & _). now apply M.
Qed.

(* a refused handshake (key rejected, or another key than the bound one) removes
   the prospective session and leaves the established sessions and the bound key
   exactly as they were *)
Theorem C05_refusal_undisturbed : forall (accept : N -> bool) ch ch',
  on_ready accept ch = (ch', false) ->
  ch_s0 ch' = ch_s0 ch /\ ch_s1 ch' = ch_s1 ch /\ ch_remote ch' = ch_remote ch /\
  (ch_s2 ch <> None -> ch_s2 ch' = None).
Proof.
  intros accept ch ch'. rewrite on_ready_eq. cbn [slot].
  destruct (ch_s2 ch) as [se|]; [cbv zeta; destruct (check_key _ _ _); [discriminate|]|];
    intros [= <-]; cbn; repeat split; congruence.
Qed.

(* application data is only encrypted with the current session, hence to the bound key *)
Theorem C05_send_to_bound_key : forall (accept : N -> bool) ch ch' w,
  Inv accept ch -> chan_send ch = (ch', Some w) ->
  exists se k, ch_s1 (expire ch) = Some se /\ c_rkey se = Some k /\ ch_remote ch = Some k /\ accept k = true.
Proof. exact send_bound. Qed.

(* non-vacuity: an initiator that accepts only key 7.  With a responder of key 7
   the handshake ends bound to 7 with a current session; with a responder of
   key 8 the session is refused when it becomes ready and nothing is bound. *)
Definition acc7 (k : N) : bool := k =? 7.
Definition hs_ops (k : N) : list cop :=
  [ORekey 10 100 1; ODeliver 11 (mkW k 50 (Some 10) MRH 0 0); ODeliver 12 (mkW k 50 (Some 10) MRD 0 0)].
Example C05_nonvacuous :
  map (fun x => (ch_remote (fst x), match ch_s1 (fst x) with Some _ => true | None => false end))
      (ctrace acc7 (new_chan 1) (hs_ops 7)) = [(None, false); (None, false); (Some 7, true)] /\
  map (fun x => (ch_remote (fst x), match ch_s1 (fst x) with Some _ => true | None => false end,
                 match ch_s2 (fst x) with Some _ => true | None => false end))
      (ctrace acc7 (new_chan 1) (hs_ops 8)) = [(None, false, true); (None, false, true); (None, false, false)].
Proof. split; vm_compute; reflexivity. Qed.

Print Assumptions C05_history.
Print Assumptions C05_same_key_forever.
Print Assumptions C05_refusal_undisturbed.
Print Assumptions C05_send_to_bound_key.
