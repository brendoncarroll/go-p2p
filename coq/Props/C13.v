(* C13 — Cancellation is prompt and each message is handed to exactly one receiver. *)
From P2PV Require Import Lib.Base Model.Hub Proofs.HubP Model.Queue Proofs.QueueP Run.RunQueue Proofs.QueueRunP.

(* Over EVERY event list the hub transition system accepts — any number of
   concurrent Receive/ServeAsk and Deliver calls, any interleaving with
   cancellations of their contexts and with Close: *)

(* a message is handed to at most one callback and a call receives at most one message *)
Theorem C13_exactly_one : forall evs h, hrun hub0 evs = Some h ->
  (forall d, count (is_meet_d d) evs <= 1) /\ (forall r, count (is_meet_r r) evs <= 1).
Proof. exact at_most_one_meet. Qed.

(* Deliver returns success only after the chosen callback has finished with the message *)
Theorem C13_success_after_callback : forall pre d h, hrun hub0 (pre ++ [HDlvRetOk d]) = Some h ->
  exists r, In (HMeet r d) pre /\ In (HCbEnd r) pre.
Proof. exact ok_after_callback. Qed.

(* ... and an error only if no callback ever saw it, before or after *)
Theorem C13_error_means_unseen : forall pre post d ce h,
  hrun hub0 (pre ++ HDlvRetErr d ce :: post) = Some h ->
  count (is_meet_d d) (pre ++ HDlvRetErr d ce :: post) = 0.
Proof. exact err_never_met. Qed.

(* a parked call whose context is cancelled can return at once (it is never
   stuck behind a competing call); nobody returns a context error unprovoked *)
Theorem C13_cancel_enabled : forall h r d,
  (h_r h r = RWait -> h_rc h r = true -> hstep h (HRecvRetErr r false) <> None) /\
  (h_d h d = DOffer -> h_dc h d = true -> hstep h (HDlvRetErr d false) <> None).
Proof. exact cancel_releases_parked. Qed.

(* a message is not lost because a competing receiver was cancelled: cancelling
   receiver r changes nothing but r's flag, every other parked pair can still meet *)
Theorem C13_cancel_loses_nothing : forall h r r' d h',
  hstep h (HCancelR r) = Some h' -> h_r h r' = RWait -> h_d h d = DOffer ->
  hstep h' (HMeet r' d) <> None.
Proof. intros h r r' d h' [= <-] Er Ed. cbn. rewrite Er, Ed. discriminate. Qed.

(* non-vacuity: two receivers, two deliverers, a cancellation and a close *)
Example C13_nonvacuous :
  hrun hub0 [HRecvCall 0; HRecvCall 1; HDlvCall 0; HMeet 1 0; HCancelR 0; HRecvRetErr 0 false; HDlvCall 1;
             HCbEnd 1; HDlvRetOk 0; HCloseBegin; HDlvRetErr 1 true; HCloseEnd] <> None /\
  hrun hub0 [HRecvCall 0; HDlvCall 0; HMeet 0 0; HDlvRetOk 0] = None.
Proof. split; [vm_compute; discriminate|vm_compute; reflexivity]. Qed.

(* swarmutil.Queue: each accepted message is handed out exactly once.
   For every operation sequence on a fresh queue: the messages Deliver accepted
   are, in order, exactly those that have left the queue (each once: handed to a
   Receive callback, purged, or dropped by Close) followed by those still queued;
   the queue never holds more than its capacity *)
Theorem C13_queue_exactly_once : forall cap mtu ops,
  let '(q, h) := qhrun (new_queue cap mtu) (mkH [] []) ops in
  h_accepted h = map fst (h_left h) ++ q_items q /\ length (q_items q) <= cap.
Proof. exact queue_exactly_once. Qed.

(* Receive hands out the oldest queued message and removes exactly it *)
Theorem C13_queue_receive_is_oldest : forall q m q', qstep q QReceive = (q', QGot m) -> q_items q = m :: q_items q'.
Proof. exact receive_is_oldest. Qed.

(* a Deliver that reports false left no trace; one that reports true stored the message as given *)
Theorem C13_queue_refused_unseen : forall q m, snd (qstep q (QDeliver m)) = QRefused -> fst (qstep q (QDeliver m)) = q.
Proof. exact refused_unseen. Qed.
Theorem C13_queue_accepted_stored : forall q m, snd (qstep q (QDeliver m)) = QAccepted ->
  q_items (fst (qstep q (QDeliver m))) = q_items q ++ [m] /\ length (q_payload m) <= q_mtu q.
Proof. exact accepted_stored. Qed.

(* the verdict the runner computes on a real queue's results never blames results the model produces *)
Theorem C13_queue_verdict_sound : forall ops q,
  length (q_items q) <= q_cap q -> (q_closed q = true -> q_items q = []) ->
  p_qseq (q_cap q) (q_mtu q) (q_closed q) (q_items q) ops (map sx_of_qout (snd (qrun q ops))) = Run.RunFrag.ok.
Proof. exact model_results_pass. Qed.

Print Assumptions C13_exactly_one.
Print Assumptions C13_success_after_callback.
Print Assumptions C13_error_means_unseen.
Print Assumptions C13_cancel_enabled.
Print Assumptions C13_cancel_loses_nothing.
Print Assumptions C13_queue_exactly_once.
Print Assumptions C13_queue_receive_is_oldest.
Print Assumptions C13_queue_refused_unseen.
Print Assumptions C13_queue_accepted_stored.
Print Assumptions C13_queue_verdict_sound.
