(* C12 — Close ends everything promptly and for good. *)
From P2PV Require Import Lib.Base Model.Hub Proofs.HubP Model.Queue Proofs.QueueP Model.QueueBuf Proofs.QueueBufP.

(* every Receive/ServeAsk/Deliver that is parked when the hub closes can return
   the close error at once: nothing it waits for can keep it *)
Theorem C12_blocked_calls_released : forall h r d, closing h = true ->
  (h_r h r = RWait -> hstep h (HRecvRetErr r true) <> None) /\
  (h_d h d = DOffer -> hstep h (HDlvRetErr d true) <> None).
Proof. exact close_releases_parked. Qed.

(* a call made after Close has returned never has a message delivered to its
   callback, in any continuation, and if it returns it returns an error *)
Theorem C12_no_delivery_after_close : forall pre r post h h1,
  hrun hub0 pre = Some h1 -> h_phase h1 = Closed ->
  hrun hub0 (pre ++ HRecvCall r :: post) = Some h ->
  count (is_meet_r r) post = 0 /\ (forall ok m, h_r h r = RRet ok m -> ok = false).
Proof. exact call_after_close_never_served. Qed.

(* the only ways a receiver call ends: with the message of exactly one
   callback (success), or with an error that Close or its own cancellation caused *)
Theorem C12_no_spurious_result : forall h r ce h', hstep h (HRecvRetErr r ce) = Some h' ->
  if ce then closing h = true \/ h_r h r = RDead else h_rc h r = true.
Proof. exact no_spurious_errors. Qed.

(* closing twice is closing once *)
Theorem C12_close_idempotent : forall h h1 h2, hstep h HCloseBegin = Some h1 -> hstep h1 HCloseEnd = Some h2 ->
  hstep h2 HCloseBegin = Some h2 /\ hstep h2 HCloseEnd = Some h2.
Proof.
  intros [p r d rc dc] h1 h2. destruct p; cbn; intros [= <-]; cbn; intros [= <-]; cbn; auto.
Qed.

Example C12_nonvacuous :
  hrun hub0 [HRecvCall 0; HRecvCall 1; HCloseBegin; HRecvRetErr 0 true; HCloseEnd; HRecvRetErr 1 true;
             HRecvCall 2; HRecvRetErr 2 true; HDlvCall 0; HDlvRetErr 0 true] <> None /\
  hrun hub0 [HRecvCall 0; HCloseBegin; HCloseEnd; HDlvCall 0; HMeet 0 0] = None.
Proof. split; [vm_compute; discriminate|vm_compute; reflexivity]. Qed.

(* swarmutil.Queue (the buffer behind vswarm's Receive):
   once closed, a queue accepts nothing, hands nothing out and never blocks a
   Receive again, whatever is called on it; and it stays closed *)
Theorem C12_queue_closed_is_final : forall q h o, QInv q h -> q_closed q = true ->
  q_closed (fst (qstep q o)) = true /\
  match snd (qstep q o) with QAccepted | QGot _ | QWouldBlock => False | _ => True end.
Proof. exact closed_is_final. Qed.

(* the invariant holds in every state a fresh queue can reach *)
Theorem C12_queue_invariant : forall cap mtu ops,
  QInv (fst (qhrun (new_queue cap mtu) (mkH [] []) ops)) (snd (qhrun (new_queue cap mtu) (mkH [] []) ops)).
Proof. intros. apply qhrun_inv, qinv_new. Qed.

(* the same at the level of buffers and under ANY interleaving (Receive callbacks still
   running, Deliver, Purge, further Close calls): once the closed signal is set nothing is
   accepted any more and no callback is handed a message *)
Theorem C12_queue_nothing_after_close_concurrent : forall evs s s' os,
  ClosedEmpty s -> b_closed s = true -> brun s evs = Some (s', os) ->
  forall o, In o os -> match o with BWrote _ | BGot _ _ => False | _ => True end.
Proof. exact nothing_after_close. Qed.

Print Assumptions C12_blocked_calls_released.
Print Assumptions C12_no_delivery_after_close.
Print Assumptions C12_no_spurious_result.
Print Assumptions C12_close_idempotent.
Print Assumptions C12_queue_closed_is_final.
Print Assumptions C12_queue_invariant.
Print Assumptions C12_queue_nothing_after_close_concurrent.
