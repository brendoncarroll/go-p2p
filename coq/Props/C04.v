(* C04 — Secure swarms attribute every message to the key its sender proved. *)
From P2PV Require Import Lib.Base Model.Handshake Model.Channel Model.KeSwarm Proofs.ChannelP Model.Wl.
Open Scope N_scope.

(* p2pkeswarm.  For every fingerprinter, whitelist and every history of a
   channel created either way (by a Tell to identity `want`, or by a peer's
   message), whenever the channel hands up application data: the message is
   delivered only if the whitelist accepts the identity attached to it, that
   identity is the fingerprint of the channel's bound key, and every established
   session of the channel (the one that decrypted the data included) is with
   exactly that key, which the session proved in its handshake (C02/C03). *)
Theorem C04_attribution_and_whitelist : forall fp whitelist accept key ops ch' r id,
  In (ch', Some r) (ctrace accept (new_chan key) ops) ->
  handle_app fp whitelist ch' = Some id ->
  whitelist id = true /\
  exists k, ch_remote ch' = Some k /\ id = fp k /\ accept k = true /\
            est ch' (ch_s0 ch') /\ est ch' (ch_s1 ch').
Proof.
  intros fp wl accept key ops ch' r id Hin Hh.
  destruct (ctrace_new accept key ops ch' (Some r) Hin) as (HI & _).
  unfold handle_app in Hh. destruct (ch_remote ch') as [k|] eqn:Ek; [|discriminate].
  destruct (wl (fp k)) eqn:Ew; [|discriminate]. injection Hh as <-.
  split; [exact Ew|]. exists k. repeat split; auto.
  - exact (inv_accept _ _ _ HI Ek).
  - exact (inv_slot _ _ 0 HI).
  - exact (inv_slot _ _ 1 HI).
Qed.

(* a Tell addressed to identity `want` only ever uses a channel whose bound key
   has that identity, whoever opened the channel and whatever happened on it;
   Send encrypts with the current session, which is with that key *)
Theorem C04_tell_reaches_only_the_identity : forall fp accept key ops ch' r want ch'' w,
  In (ch', r) (ctrace accept (new_chan key) ops) ->
  tell_uses fp want ch' = true -> chan_send ch' = (ch'', Some w) ->
  exists se k, ch_s1 (expire ch') = Some se /\ c_rkey se = Some k /\ fp k = want.
Proof.
  intros fp accept key ops ch' r want ch'' w Hin Hu Hs.
  destruct (ctrace_new accept key ops ch' r Hin) as (HI & _).
  destruct (send_bound accept ch' ch'' w HI Hs) as (se & k & E1 & Ek & Er & _).
  exists se, k. split; [exact E1|split; [exact Ek|]].
  unfold tell_uses in Hu. rewrite Er in Hu. now apply N.eqb_eq.
Qed.

(* a channel opened by a Tell to `want` never binds another identity at all *)
Theorem C04_outbound_channel_binds_only_want : forall fp key ops ch' r want k,
  In (ch', r) (ctrace (accept_out fp want) (new_chan key) ops) ->
  ch_remote ch' = Some k -> fp k = want.
Proof.
  intros fp key ops ch' r want k Hin Hk.
  destruct (ctrace_new (accept_out fp want) key ops ch' r Hin) as (HI & _).
  apply (inv_accept _ _ _ HI) in Hk. now apply N.eqb_eq.
Qed.

(* and a channel opened by a peer only binds whitelisted identities *)
Theorem C04_inbound_channel_binds_only_whitelisted : forall fp whitelist key ops ch' r k,
  In (ch', r) (ctrace (accept_in fp whitelist) (new_chan key) ops) ->
  ch_remote ch' = Some k -> whitelist (fp k) = true.
Proof.
  intros fp wl key ops ch' r k Hin Hk.
  destruct (ctrace_new (accept_in fp wl) key ops ch' r Hin) as (HI & _).
  exact (inv_accept _ _ _ HI Hk).
Qed.

(* wlswarm: a peer rejected by the whitelist never has a message or ask delivered *)
Theorem C04_whitelist_wrapper_receive : forall allow inner m,
  In m (wl_receive allow inner) <-> (In m inner /\ allow (w_src m) = true).
Proof. intros. unfold wl_receive. apply filter_In. Qed.

(* ... and nothing is sent or asked towards a rejected address *)
Theorem C04_whitelist_wrapper_send : forall allow m m',
  wl_send allow m = Some m' -> m' = m /\ allow (w_dst m) = true.
Proof. intros allow m m'. unfold wl_send. destruct (allow (w_dst m)); [intros [= <-]; auto|discriminate]. Qed.

Print Assumptions C04_attribution_and_whitelist.
Print Assumptions C04_tell_reaches_only_the_identity.
Print Assumptions C04_outbound_channel_binds_only_want.
Print Assumptions C04_inbound_channel_binds_only_whitelisted.
Print Assumptions C04_whitelist_wrapper_receive.
Print Assumptions C04_whitelist_wrapper_send.
