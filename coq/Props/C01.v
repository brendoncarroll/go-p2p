(* C01 — Every swarm delivers exactly what was told, to whom it was told. *)
From P2PV Require Import Lib.Base Lib.Varint Model.Mux Model.Frag Model.Layers
  Proofs.MuxP Proofs.FragP Proofs.LayersP Proofs.MbappP Proofs.LayersMbP.
Open Scope N_scope.

(* Composition: for EVERY stack of sound layers (any depth, any nesting), any
   bookkeeping consistent with the set L of (source, payload) pairs told at the
   top, and every sequence of genuine wire messages reaching the receiver's base
   transport from their true sources (any interleaving of any number of
   senders, any order, duplicates, omissions): whatever the stack hands to the
   receiver is a (source, payload) pair that was told; never a truncation,
   concatenation or mixture, never attributed to another source. *)
Theorem C01_stack_faithful : forall (ls : list slayer) a (L : told) inp,
  led_ok (stack_slayer ls) a L ->
  Forall (fun sw => wire_ok (stack_slayer ls) a (fst sw) (snd sw)) inp ->
  forall src p, In (src, p) (deliveries (stack_rlayer (map sl ls)) inp) -> L src p.
Proof. exact stack_faithful. Qed.

(* the sound layers: any multiplexer channel (among other channels sharing the
   multiplexer), the fragmenting swarm, pass-through wrappers, the message-box
   layer's Tell traffic *)
Definition C01_mux_layer := mux_slayer.
Definition C01_frag_layer := frag_slayer.
Definition C01_id_layer := id_slayer.
Definition C01_mbapp_layer := mb_slayer.

(* soundness of one multiplexer channel stated directly *)
Theorem C01_mux_sound : forall k c (a : told), valid_chan k c = true -> forall inp,
  Forall (fun sw => mux_wire k c a (fst sw) (snd sw)) inp ->
  forall src p, In (src, p) (deliveries (mux_rlayer k c) inp) -> a src p.
Proof. exact mux_deliveries. Qed.

(* and of the fragmenting swarm *)
Theorem C01_frag_sound : forall (S : list sent), NoDup (map s_key S) -> forall inp,
  Forall (fun sw => genuine S (fst sw) (snd sw)) inp ->
  forall src p, In (src, p) (deliveries frag_rlayer inp) ->
  exists m, In m S /\ s_src m = src /\ s_payload m = p.
Proof. intros S Hnd inp Hall src p Hin. exact (frag_deliveries S Hnd inp [] [] (inv_init S) Hall src p Hin). Qed.

(* non-vacuity: channel "ab" of a string multiplexer over the fragmenting swarm
   over channel 7 of a uint16 multiplexer; two senders' three-fragment messages
   interleaved, one fragment duplicated, plus another channel's traffic *)
Definition exA := mkSent [48] 0 [[2; 97; 98; 1]; [2; 3; 4]; [5]].     (* frame "ab" [1;2;3;4;5] in chunks *)
Definition exB := mkSent [49] 0 [[2; 97; 98; 9]; [9; 8; 8]; [7]].
Definition w16 (x : bytes) := frame KU16 (CInt 7) x.
Definition fr (m : sent) i := w16 (nth i (fragments (s_id m) (s_chunks m)) []).
Definition ex_inp : list (bytes * bytes) :=
  [([48], fr exA 2); ([49], fr exB 0); ([48], fr exA 0); ([48], fr exA 0); ([50], frame KU16 (CInt 8) [1; 1]);
   ([49], fr exB 2); ([48], fr exA 1); ([49], fr exB 1)].
Example C01_nonvacuous :
  deliveries (stack_rlayer [mux_rlayer KString (CStr [97; 98]); frag_rlayer; mux_rlayer KU16 (CInt 7)]) ex_inp
  = [([48], [1; 2; 3; 4; 5]); ([49], [9; 9; 8; 8; 7])].
Proof. vm_compute. reflexivity. Qed.

Print Assumptions C01_stack_faithful.
Print Assumptions C01_mux_sound.
Print Assumptions C01_frag_sound.
Print Assumptions frag_slayer.
Print Assumptions mux_slayer.
Print Assumptions mb_slayer.
