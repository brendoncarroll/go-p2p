(* C03 / C02: what holds of ONE session whatever is delivered to it, one API call at a time.
   hs_effect lists what reading a handshake message can do to a session, step_effect what a whole
   call can do (sstep_spec); gate_inv and sender_inv are preserved case by case over these
   (effect_gate, effect_sender, sstep_inv).
   Model.Session repeats the control structure of Model.Handshake over symbolic terms, so
   xvalidate_spec, receiver_can_send and xread_handshake_effect mirror validate_spec,
   can_receive_stage and read_handshake_effect of HandshakeP.  They are proved again here and not
   shared: what they state are equations on the whole record ssess (keys, bindings, cache
   contents included), which a lemma about sess says nothing of. *)
From P2PV Require Import Lib.Base Model.Handshake Model.Session.
From Coq Require Import Lia ZifyBool ZifyN ZifyNat.
Open Scope N_scope.

(* by structural recursion on x; under THash, by induction on the list with the recursive call on its elements *)
Lemma term_eqb_eq : forall x y, term_eqb x y = true -> x = y.
Proof.
  fix IH 1. intros x y.
  destruct x, y; cbn [term_eqb]; try discriminate; intros H.
  - now apply N.eqb_eq in H as ->.
  - now apply N.eqb_eq in H as ->.
  - now apply N.eqb_eq in H as ->.
  - now apply andb_prop in H as [[->%N.eqb_eq ->%N.eqb_eq]%andb_prop ->%IH].
  - f_equal. revert l0 H.
    induction l as [|a l IHl]; intros [|b l0] H; try discriminate; [reflexivity|].
    apply andb_prop in H as [->%IH ->%IHl]. reflexivity.
  - now apply andb_prop in H as [[->%N.eqb_eq ->%N.eqb_eq]%andb_prop ->%N.eqb_eq].
  - now apply andb_prop in H as [[->%IH ->%N.eqb_eq]%andb_prop ->%IH].
  - now apply andb_prop in H as [->%IH ->%IH].
  - reflexivity.
Qed.

Lemma as_aead_some t k c p : as_aead t = Some (k, c, p) -> t = TAead k c p.
Proof. destruct t; cbn; try discriminate. intros H; now injection H as -> -> ->. Qed.
Lemma as_pair_some t a b : as_pair t = Some (a, b) -> t = TPair a b.
Proof. destruct t; cbn; try discriminate. intros H; now injection H as -> ->. Qed.

(* a signature verifies only if it was built with that key, purpose and message *)
Lemma verify_claim_some purpose kc sg msg k :
  verify_claim purpose kc sg msg = Some k -> kc = TPub k /\ sg = TSig k purpose msg.
Proof.
  unfold verify_claim. destruct kc; cbn; try discriminate. destruct sg; cbn; try discriminate.
  destruct ((k0 =? k1) && (purpose0 =? purpose) && term_eqb sg msg) eqn:E; [|discriminate].
  intros H; injection H as <-. apply andb_prop in E as [E Em]. apply andb_prop in E as [Ek Ep].
  apply N.eqb_eq in Ek, Ep. apply term_eqb_eq in Em. subst. auto.
Qed.

(* canSend or canReceive of session.go: the session would encrypt for, or accept application data
   from, the peer it reports (IsReady is their conjunction) *)
Definition usable (s : ssess) : bool := xcan_send s || xcan_receive s.

(* the channel binding this session's peer must have signed *)
Definition binding (s : ssess) : term := if x_init s then x_cb1 s else x_cb2 s.

(* w carries sig as the signature inside its encrypted handshake payload *)
Definition presents (w : wire) (sig : term) : Prop :=
  match w with
  | W1 _ (TAead _ _ (TPair _ sg)) => sg = sig
  | WC _ (TAead _ _ sg) => sg = sig
  | _ => False
  end.

(* hsIndex by role; 8 is what Deliver sets it to when it accepts application data *)
Definition stage_ok (s : ssess) : Prop :=
  if x_init s then x_hs s = 0 \/ x_hs s = 2 \/ x_hs s = 4 \/ x_hs s = 8
  else x_hs s = 0 \/ x_hs s = 1 \/ x_hs s = 3 \/ x_hs s = 8.

(* the signed transcript contains this session's own fresh ephemeral *)
Definition binding_fresh (s : ssess) : Prop :=
  if x_init s then exists rest, x_cb1 s = THash (TEph (x_eph s) :: rest)
  else usable s = true -> exists cb1 c, x_cb2 s = THash [cb1; TEph (x_eph s); c].

Definition gate_inv (s : ssess) : Prop :=
  stage_ok s /\ binding_fresh s /\
  (usable s = true -> exists r, x_remote s = Some r /\ x_verified s = Some (r, binding s)) /\
  (* a responder past message 1 has its channel bindings and peer fixed *)
  (x_init s = false -> 1 <= x_hs s -> exists cb1 c, x_cb2 s = THash [cb1; TEph (x_eph s); c]).

Lemma usable_stage s : stage_ok s ->
  usable s = (if x_init s then 2 <=? x_hs s else 3 <=? x_hs s).
Proof.
  unfold stage_ok, usable, xcan_send, xcan_receive. destruct (x_init s); intros H;
    destruct (N.leb_spec 3 (x_hs s)), (N.leb_spec 2 (x_hs s)); cbn; try reflexivity; lia.
Qed.

(* a session that can receive can also send, unless it is an initiator still waiting for RespDone *)
Lemma receiver_can_send s : stage_ok s -> xcan_receive s = true ->
  xcan_send s = negb (x_init s && (x_hs s =? 2)).
Proof.
  unfold stage_ok, xcan_send, xcan_receive. destruct (x_init s); intros H Hr;
    repeat destruct H as [H|H]; rewrite H in *; try discriminate; reflexivity.
Qed.

Lemma gate_new i me e ts : gate_inv (new_ssess i me e ts).
Proof.
  unfold gate_inv, stage_ok, binding_fresh, usable, xcan_send, xcan_receive, new_ssess. destruct i; cbn.
  - split; [now left|]. split; [eexists; reflexivity|]. split; [discriminate|discriminate].
  - split; [now left|]. split; [discriminate|]. split; [discriminate|]. intros _ H. lia.
Qed.

(* what one handshake read can do to a session *)
Inductive hs_effect (s : ssess) (w : wire) : ssess -> bool -> Prop :=
| HE_same okb : hs_effect s w s okb
| HE_spent n : hs_effect s w (spent s n) false
| HE_ih e ts kc sg k :                       (* responder accepted an InitHello *)
    w = W0 e ts kc sg -> x_init s = false -> x_hs s = 0 -> kc = TPub k -> sg = TSig k P_TS ts ->
    hs_effect s w
      (let cb1 := cb1_of e ts kc sg in
       let c := TAead (mk_key (x_eph s) e 2) 0 (TPair (TPub (x_me s)) (TSig (x_me s) P_CB cb1)) in
       upd s 1 2 (Some e) (Some k) cb1 (cb2_of cb1 (x_eph s) c)
           (set_cache (x_cache s) 1 (W1 (x_eph s) c)) (x_nonce s) (x_verified s)) true
| HE_rh e c k :                              (* initiator accepted a RespHello *)
    w = W1 e c -> x_init s = true -> x_hs s = 0 ->
    c = TAead (mk_key (x_eph s) e 2) 0 (TPair (TPub k) (TSig k P_CB (x_cb1 s))) ->
    hs_effect s w
      (let cb2 := cb2_of (x_cb1 s) e c in
       upd s 2 2 (Some e) (Some k) (x_cb1 s) cb2
           (set_cache (x_cache s) 2 (WC 2 (TAead (mk_key (x_eph s) e 0) 2 (TSig (x_me s) P_CB cb2)))) (x_nonce s)
           (Some (k, x_cb1 s))) true
| HE_id h c r :                              (* responder accepted an InitDone *)
    w = WC h c -> x_init s = false -> x_hs s = 1 -> x_remote s = Some r ->
    c = TAead (kin s) 2 (TSig r P_CB (x_cb2 s)) ->
    hs_effect s w
      (upd s 3 (x_noise s) (x_peer s) (Some r) (x_cb1 s) (x_cb2 s)
           (set_cache (x_cache s) 3 (WC 3 (TAead (kout s) 3 TNil))) NONCE_POST_HANDSHAKE (Some (r, x_cb2 s))) true
| HE_rd h c pt :                             (* initiator accepted a RespDone *)
    w = WC h c -> x_init s = true -> x_hs s = 2 -> c = TAead (kin s) 3 pt ->
    hs_effect s w
      (upd s 4 (x_noise s) (x_peer s) (x_remote s) (x_cb1 s) (x_cb2 s) (x_cache s) NONCE_POST_HANDSHAKE (x_verified s)) true.

(* the four readers; a failed check leaves the state as it was, or only the Noise counter moved *)
Lemma read_init_hello_effect s e ts kc sg : x_init s = false -> x_hs s = 0 ->
  let r := read_init_hello s e ts kc sg in hs_effect s (W0 e ts kc sg) (fst r) (snd r).
Proof.
  intros Hi Hh. unfold read_init_hello. destruct (negb (x_noise s =? 0)); [constructor|].
  destruct (verify_claim P_TS kc sg ts) as [k|] eqn:Ev; [|constructor].
  destruct (verify_claim_some _ _ _ _ _ Ev) as [-> ->]. now eapply HE_ih.
Qed.

Lemma read_resp_hello_effect s e c : x_init s = true -> x_hs s = 0 ->
  let r := read_resp_hello s e c in hs_effect s (W1 e c) (fst r) (snd r).
Proof.
  intros Hi Hh. unfold read_resp_hello. destruct (negb (x_noise s =? 1)); [constructor|].
  destruct (as_aead c) as [[[key ctr] pt]|] eqn:Ea; [|constructor]. apply as_aead_some in Ea as ->.
  destruct (term_eqb key (mk_key (x_eph s) e 2) && (ctr =? 0)) eqn:Ek; [|constructor]. cbn [negb].
  apply andb_prop in Ek as [->%term_eqb_eq ->%N.eqb_eq].
  destruct (as_pair pt) as [[kc sg]|] eqn:Ep; [|constructor]. apply as_pair_some in Ep as ->.
  destruct (verify_claim P_CB kc sg (x_cb1 s)) as [k|] eqn:Ev; [|constructor].
  destruct (verify_claim_some _ _ _ _ _ Ev) as [-> ->]. now eapply HE_rh.
Qed.

Lemma read_init_done_effect s h c : x_init s = false -> x_hs s = 1 ->
  let r := read_init_done s c in hs_effect s (WC h c) (fst r) (snd r).
Proof.
  intros Hi Hh. unfold read_init_done.
  destruct (as_aead c) as [[[key ctr] pt]|] eqn:Ea; [|constructor]. apply as_aead_some in Ea as ->.
  destruct (x_remote s) as [r|] eqn:Er; [|constructor].
  destruct (term_eqb key (kin s) && (ctr =? 2)) eqn:Ek; [|constructor].
  apply andb_prop in Ek as [->%term_eqb_eq ->%N.eqb_eq].
  destruct (verify_claim P_CB (TPub r) pt (x_cb2 s)) as [k|] eqn:Ev; [|constructor].
  destruct (verify_claim_some _ _ _ _ _ Ev) as [[= <-] ->]. now eapply HE_id.
Qed.

Lemma read_resp_done_effect s h c : x_init s = true -> x_hs s = 2 ->
  let r := read_resp_done s c in hs_effect s (WC h c) (fst r) (snd r).
Proof.
  intros Hi Hh. unfold read_resp_done.
  destruct (as_aead c) as [[[key ctr] pt]|] eqn:Ea; [|constructor]. apply as_aead_some in Ea as ->.
  destruct (term_eqb key (kin s) && (ctr =? 3)) eqn:Ek; [|constructor].
  apply andb_prop in Ek as [->%term_eqb_eq ->%N.eqb_eq]. now eapply HE_rd.
Qed.

Lemma xread_handshake_effect s w :
  let r := xread_handshake s w in hs_effect s w (fst r) (snd r).
Proof.
  (* each wire form has its readers, each behind a role-and-stage guard; all other branches return (s, _) *)
  assert (Rest : forall (g : bool) (x y : ssess * bool),
            (g = true -> hs_effect s w (fst x) (snd x)) -> hs_effect s w (fst y) (snd y) ->
            hs_effect s w (fst (if g then x else y)) (snd (if g then x else y))).
  { intros [|] x y Hx Hy; auto. }
  unfold xread_handshake.
  destruct w as [e ts kc sg|e c|h c|]; cbn [wire_nonce]; [| | |constructor].
  (* repeat apply Rest leaves six goals, in the order of xread_handshake: under the guard of
     InitHello, of RespHello, of InitDone, of RespDone, under the parity rule, and the last else *)
  - (* W0 *)
    repeat apply Rest;
      [intros G (* InitHello *)|intros; constructor..].
    apply andb_prop in G as [[Hi%Bool.negb_true_iff Hh%N.eqb_eq]%andb_prop _].
    now apply read_init_hello_effect.
  - (* W1 *)
    repeat apply Rest;
      [intros; constructor|intros G (* RespHello *)|intros; constructor..].
    apply andb_prop in G as [[Hi Hh%N.eqb_eq]%andb_prop _].
    now apply read_resp_hello_effect.
  - (* WC *)
    repeat apply Rest;
      [intros _ (* InitHello: not parsed *)|intros; constructor
      |intros G (* InitDone *)|intros G (* RespDone *)|intros; constructor..].
    + destruct (short_junk c); constructor.
    + apply andb_prop in G as [[Hi%Bool.negb_true_iff Hh%N.eqb_eq]%andb_prop _].
      now apply read_init_done_effect.
    + apply andb_prop in G as [[Hi Hh%N.eqb_eq]%andb_prop _].
      now apply read_resp_done_effect.
Qed.

(* the gate: a session becomes usable only by verifying, under the key it then
   reports as remote, a channel-binding signature over its own transcript, which
   contains its own fresh ephemeral *)
Lemma effect_gate s w s' okb : gate_inv s -> hs_effect s w s' okb ->
  gate_inv s' /\
  (usable s = true -> x_remote s' = x_remote s /\ binding s' = binding s /\ usable s' = true) /\
  (usable s = false -> usable s' = true ->
     exists r, x_remote s' = Some r /\ presents w (TSig r P_CB (binding s'))).
Proof.
  intros Hg He. pose proof Hg as (Hst & Hbf & Hgv & Hr2). pose proof (usable_stage s Hst) as Hus.
  unfold binding_fresh, binding in Hbf, Hgv.
  destruct He as [okb|n|e ts kc sg k Hw Hi Hh Hkc Hsg|e c k Hw Hi Hh Hc|h c r Hw Hi Hh Hr Hc|h c pt Hw Hi Hh Hc].
  (* nothing the gate speaks of has changed *)
  1,2: split; [exact Hg|]; split; [now intros A|intros A B; change (usable s = true) in B; congruence].
  (* a message was accepted: with role and stage known, usable of both states, and stage_ok,
     binding_fresh and binding of the new one, are computed *)
  all: rewrite Hus, Hi, Hh; rewrite Hi in Hbf, Hgv; subst w; cbn zeta;
    unfold gate_inv, stage_ok, binding_fresh, binding, usable, xcan_send, xcan_receive;
    cbn [upd x_init x_hs x_eph x_cb1 x_cb2 x_remote x_verified]; rewrite Hi; cbn.
  - (* InitHello: the responder is at stage 1, not usable before or after *)
    split; [|split].
    + (* gate_inv *) split; [auto|]. split; [easy|]. split; [easy|]. intros _ _. now eexists _, _.
    + easy.
    + easy.
  - (* RespHello: the initiator becomes usable, the responder's signature over cb1 verified *)
    split; [|split].
    + (* gate_inv *) split; [auto|]. split; [exact Hbf|]. split; [|easy]. intros _. now exists k.
    + easy.
    + intros _ _. exists k. subst c. auto.
  - (* InitDone: the responder becomes usable, the initiator's signature over cb2 verified *)
    assert (Hcb : exists cb1 c0, x_cb2 s = THash [cb1; TEph (x_eph s); c0]).
    { apply (Hr2 Hi). rewrite Hh. apply N.le_refl. }
    split; [|split].
    + (* gate_inv *) split; [auto|]. split; [auto|]. split; [|auto]. intros _. now exists r.
    + easy.
    + intros _ _. exists r. subst c. auto.
  - (* RespDone: the initiator has been usable since RespHello *)
    assert (Hu : usable s = true) by (rewrite Hus, Hi, Hh; reflexivity).
    split; [|split].
    + (* gate_inv *) split; [auto|]. split; [exact Hbf|]. split; [auto|easy].
    + auto.
    + easy.
Qed.

(* the second half is the replay filter's: x_last is the highest counter accepted *)
Definition sender_inv (s : ssess) : Prop :=
  (xcan_send s = true -> 16 <= x_nonce s) /\
  (forall c, memN c (x_seen s) = true -> c <= x_last s).

Lemma sender_new i me e ts : sender_inv (new_ssess i me e ts).
Proof. unfold sender_inv, xcan_send, new_ssess. destruct i; cbn; split; discriminate. Qed.

Lemma effect_sender s w s' okb : sender_inv s -> hs_effect s w s' okb -> sender_inv s'.
Proof.
  intros [Hn Hs] He.
  destruct He as [okb|n|e ts kc sg k _ Hi _ _ _|e c k _ Hi _ _|h c r _ Hi _ _ _|h c pt _ Hi _ _];
    [exact (conj Hn Hs)|exact (conj Hn Hs)|split; [|exact Hs]..];
    unfold xcan_send; cbn [upd x_init x_hs x_nonce]; rewrite Hi.
  (* the Hellos lead to stages that cannot send yet, the Dones set the nonce to 16 *)
  - discriminate.
  - discriminate.
  - intros _. apply N.le_refl.
  - intros _. apply N.le_refl.
Qed.

Inductive input := InDeliver (w : wire) | InSend (pt : term).

(* one API call on a session: new state and what came out (a wire for Send/replies, an outcome for Deliver) *)
Definition sstep (s : ssess) (i : input) : result (ssess * option xoutcome * option wire) :=
  match i with
  | InDeliver w =>
      match xdeliver s w with
      | Ok (s', o) => Ok (s', Some o, match o with XReply r => r | _ => None end)
      | Err e => Err e | Panic p => Panic p
      end
  | InSend pt =>
      match xsend s pt with
      | Some (s', w) => Ok (s', None, Some w)
      | None => Ok (s, None, None)
      end
  end.

Lemma xvalidate_spec s c s1 : xvalidate s c = Some s1 ->
  c < MAX_NONCE /\
  exists l, (x_last s < c /\ l = c \/ c <= x_last s /\ l = x_last s /\ memN c (x_seen s) = false) /\
    s1 = mkSS (x_init s) (x_me s) (x_eph s) (x_hs s) (x_noise s) (x_peer s) (x_remote s) (x_cb1 s) (x_cb2 s)
              (x_cache s) (x_nonce s) l (c :: x_seen s) (x_verified s).
Proof.
  unfold xvalidate. destruct (N.leb_spec MAX_NONCE c) as [|Hc]; [discriminate|].
  destruct (N.ltb_spec (x_last s) c) as [Hlt|Hge].
  - intros H; injection H as <-. eauto 6.
  - destruct (WINDOW <? x_last s - c); [discriminate|]. destruct (memN c (x_seen s)) eqn:E; [discriminate|].
    intros H; injection H as <-. eauto 8.
Qed.

(* the session after accepting the data counter h (l: the replay filter's new maximum) *)
Definition accepted (s : ssess) (h l : N) : ssess :=
  mkSS (x_init s) (x_me s) (x_eph s) 8 (x_noise s) (x_peer s) (x_remote s) (x_cb1 s) (x_cb2 s) (x_cache s)
       (if x_init s && (x_hs s =? 2) then NONCE_POST_HANDSHAKE else x_nonce s) l (h :: x_seen s) (x_verified s).

(* what one API call can do to a session, and what comes out *)
Inductive step_effect (s : ssess) : input -> ssess -> option xoutcome -> option wire -> Prop :=
| SE_same i o : (forall pt, o <> Some (XApp pt)) -> step_effect s i s o None
| SE_hs wi s' okb o : hs_effect s wi s' okb -> (forall pt, o <> XApp pt) ->
    step_effect s (InDeliver wi) s' (Some o) (match o with XReply r => r | _ => None end)
| SE_data h pt l : 4 <= h < MAX_NONCE -> xcan_receive s = true ->
    x_last s < h /\ l = h \/ h <= x_last s /\ l = x_last s /\ memN h (x_seen s) = false ->
    step_effect s (InDeliver (WC h (TAead (kin s) h pt))) (accepted s h l) (Some (XApp pt)) None
| SE_send pt : x_nonce s < MAX_NONCE -> xcan_send s = true ->
    step_effect s (InSend pt)
      (mkSS (x_init s) (x_me s) (x_eph s) (x_hs s) (x_noise s) (x_peer s) (x_remote s) (x_cb1 s) (x_cb2 s)
            (x_cache s) (x_nonce s + 1) (x_last s) (x_seen s) (x_verified s))
      None (Some (WC (x_nonce s mod 2 ^ 32) (TAead (kout s) (x_nonce s) pt))).

(* a call fails only if the handshake message to answer with cannot be written *)
Lemma sstep_spec s i :
  match sstep s i with
  | Ok (s', o, w) => step_effect s i s' o w
  | _ => exists wi s', i = InDeliver wi /\ hs_effect s wi s' true /\ forall r, xwrite_handshake s' <> Ok r
  end.
Proof.
  (* every refusal below (`now constructor`) is SE_same *)
  destruct i as [wi|pt]; cbn [sstep].
  - unfold xdeliver. destruct (MAX_NONCE <=? x_nonce s); [now constructor|].
    destruct (wire_nonce wi) as [n|] eqn:En; [|now constructor].
    destruct (N.ltb_spec n 4) as [Hn4|Hn4].
    + pose proof (xread_handshake_effect s wi) as Er.
      destruct (xread_handshake s wi) as [s2 okb]. cbn [fst snd] in Er.
      destruct okb; [|now apply (SE_hs _ _ _ _ XErr Er)].
      destruct (xwrite_handshake s2) eqn:Ew; [now apply (SE_hs _ _ _ _ (XReply _) Er)|exists wi, s2; now rewrite Ew..].
    + destruct (xcan_receive s) eqn:Ecr; [|now constructor]. cbn [negb].
      destruct wi as [| |h c|]; try now constructor.
      cbn in En. injection En as ->.
      destruct (as_aead c) as [[[key ctr] pt]|] eqn:Ea; [|now constructor].
      destruct (term_eqb key (kin s) && (ctr =? n)) eqn:Ek; [|now constructor].
      apply andb_prop in Ek as [Ek Ec]. apply term_eqb_eq in Ek. apply N.eqb_eq in Ec.
      apply as_aead_some in Ea. subst key ctr c.
      destruct (xvalidate s n) as [s2|] eqn:Ev; [|now constructor].
      apply xvalidate_spec in Ev as (Hc & l & Hl & ->). cbn. now apply SE_data.
  - unfold xsend. destruct (N.leb_spec MAX_NONCE (x_nonce s)); [now constructor|].
    destruct (xcan_send s) eqn:Ecs; [|now constructor]. now apply SE_send.
Qed.

Lemma sstep_effect s i s' o w : sstep s i = Ok (s', o, w) -> step_effect s i s' o w.
Proof. intros H. pose proof (sstep_spec s i) as S. now rewrite H in S. Qed.

(* what every API call preserves and what it can establish *)
Record step_ok (s : ssess) (i : input) (s' : ssess) (o : option xoutcome) : Prop := {
  so_gate : gate_inv s';
  so_sender : sender_inv s';
  so_stable : usable s = true -> x_remote s' = x_remote s /\ binding s' = binding s /\ usable s' = true;
  so_gained : usable s = false -> usable s' = true -> exists wi r, i = InDeliver wi /\
    x_remote s' = Some r /\ presents wi (TSig r P_CB (binding s')) /\ binding_fresh s';
  (* application data is only handed out by a usable session, and a counter is accepted at most once *)
  so_app : forall pt, o = Some (XApp pt) -> usable s = true /\
    exists h, i = InDeliver (WC h (TAead (kin s) h pt)) /\ 4 <= h /\
      memN h (x_seen s) = false /\ memN h (x_seen s') = true;
  so_seen : forall c, memN c (x_seen s) = true -> memN c (x_seen s') = true }.

Lemma sstep_inv s i s' o w :
  gate_inv s -> sender_inv s -> sstep s i = Ok (s', o, w) -> step_ok s i s' o.
Proof.
  intros Hg Hs Hstep%sstep_effect.
  destruct Hstep as [i o Ho|wi s' okb o He Ho|h pt l Hh Hcr Hl|pt Hlim Hcs].
  - (* the state is the same and nothing is handed out *)
    constructor.
    + (* so_gate *) exact Hg.
    + (* so_sender *) exact Hs.
    + (* so_stable *) now intros A.
    + (* so_gained *) congruence.
    + (* so_app *) intros pt E. now destruct (Ho pt).
    + (* so_seen *) auto.
  - destruct (effect_gate s wi s' okb Hg He) as (G1 & U1 & T1).
    constructor.
    + (* so_gate *) exact G1.
    + (* so_sender *) exact (effect_sender s wi s' okb Hs He).
    + (* so_stable *) exact U1.
    + (* so_gained *) intros A B. destruct (T1 A B) as (r & R1 & R2). exists wi, r.
      split; [reflexivity|]. split; [exact R1|]. split; [exact R2|apply G1].
    + (* so_app *) intros pt E. injection E as ->. now destruct (Ho pt).
    + (* so_seen: no handshake effect touches the accepted set *) destruct He; cbn; auto.
  - (* data: the stage becomes 8, the counter joins the accepted set, the filter's maximum becomes l and an
       initiator at stage 2 gets nonce 16 (so_sender below); nothing the gate speaks of changes, and the
       session was and stays usable *)
    assert (Hu : usable s = true) by (unfold usable; rewrite Hcr; apply Bool.orb_true_r).
    assert (Hu' : usable (accepted s h l) = true) by (unfold usable, xcan_send; cbn; now destruct (x_init s)).
    destruct Hg as (Hst & Hbf & Hgv & Hr2). destruct Hs as [Hsn Hss].
    constructor.
    + (* so_gate *)
      unfold gate_inv, stage_ok, binding_fresh in *. rewrite Hu'. cbn [accepted x_init x_hs x_eph x_cb1 x_cb2 x_remote x_verified].
      rewrite Hu in *.
      (* stage_ok: 8 is a stage of either role; binding_fresh and the verified key: accepted touches none of
         the fields they read; the responder's cb2: a usable responder has it by binding_fresh *)
      split; [destruct (x_init s); auto|]. split; [destruct (x_init s); auto|]. split; [auto|].
      intros Hi0 _. rewrite Hi0 in Hbf. auto.
    + (* so_sender *)
      unfold sender_inv. cbn [accepted x_nonce x_seen x_last].
      assert (Hlast : h <= l /\ x_last s <= l) by (clear - Hl; lia).
      split.
      * intros _. pose proof (receiver_can_send s Hst Hcr) as Hc.
        destruct (x_init s && (x_hs s =? 2)); [apply N.le_refl|exact (Hsn Hc)].
      * intros c0. cbn [memN]. intros Hm. apply Bool.orb_true_iff in Hm as [Hm|Hm].
        -- apply N.eqb_eq in Hm. subst c0. apply Hlast.
        -- apply (N.le_trans _ (x_last s)); [exact (Hss c0 Hm)|apply Hlast].
    + (* so_stable *) now intros _.
    + (* so_gained *) congruence.
    + (* so_app *)
      intros pt0 E. injection E as <-. split; [exact Hu|]. exists h.
      cbn [accepted x_seen memN]. rewrite N.eqb_refl.
      split; [reflexivity|]. split; [apply Hh|]. split; [|reflexivity].
      (* h is new: above x_last, or found absent by the filter *)
      destruct Hl as [[Hlt _]|(_ & _ & Hm)]; [|exact Hm].
      destruct (memN h (x_seen s)) eqn:E; [|reflexivity]. now apply N.lt_nge in Hlt; destruct Hlt; apply Hss.
    + (* so_seen *) intros c0 Hm. cbn [accepted x_seen memN]. rewrite Hm. apply Bool.orb_true_r.
  - (* Send: only the nonce moves *)
    constructor.
    + (* so_gate *) exact Hg.
    + (* so_sender *) destruct Hs as [Hsn Hss]. split; [intros A; specialize (Hsn Hcs); cbn; lia|exact Hss].
    + (* so_stable *) now intros A.
    + (* so_gained *) intros A B. change (usable s = true) in B. congruence.
    + (* so_app *) discriminate.
    + (* so_seen *) auto.
Qed.
