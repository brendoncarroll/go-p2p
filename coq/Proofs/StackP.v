(* MTU honesty of arbitrary stacks of layers (C09). *)
From P2PV Require Import Lib.Base Lib.Varint Model.Mux Model.Frag Model.Mbapp Model.Stack
  Proofs.BaseP Proofs.VarintP Proofs.FragP Proofs.MbappP.
From Coq Require Import Lia ZifyBool ZifyN ZifyNat.
Open Scope N_scope.

Lemma layer_accepts l inner p :
  wf_layer l inner -> (Z.of_N (lenN p) <= layer_mtu l inner)%Z ->
  exists ms, layer_send l inner p = Ok ms /\ Forall (fun m => (Z.of_N (lenN m) <= inner)%Z) ms.
Proof.
  intros Hwf Hle. destruct l as [k c|cfg id|cfg h| |other|]; cbn [layer_send layer_mtu wf_layer] in *.
  - eexists; split; [reflexivity|]. constructor; [|constructor]. unfold frame. rewrite lenN_app. lia.
  - destruct Hwf. now apply frag_tell_fits.
  - now apply mb_tell_fits.
  - destruct (Z.ltb_spec (Z.min (inner - KE_OVERHEAD) KE_MAX_MESSAGE_LEN) (Z.of_N (lenN p))); [lia|].
    eexists; split; [reflexivity|]. constructor; [|constructor].
    unfold ke_frame. rewrite !lenN_app. change (lenN (repeat 0 4)) with 4. change (lenN (repeat 0 16)) with 16.
    unfold KE_OVERHEAD in *. lia.
  - destruct (Z.ltb_spec (Z.min inner other) (Z.of_N (lenN p))); [lia|].
    eexists; split; [reflexivity|]. constructor; [lia|constructor].
  - eexists; split; [reflexivity|]. constructor; [lia|constructor].
Qed.

(* a layer either refuses an oversized payload itself or hands down exactly one
   message that is oversized for the swarm beneath *)
Lemma layer_refuses l inner p :
  (layer_mtu l inner < Z.of_N (lenN p))%Z ->
  layer_send l inner p = Err E_MTU \/
  exists m, layer_send l inner p = Ok [m] /\ (inner < Z.of_N (lenN m))%Z.
Proof.
  intros Hgt. destruct l as [k c|cfg id|cfg h| |other|]; cbn [layer_send layer_mtu] in *.
  - right. eexists; split; [reflexivity|]. unfold frame. rewrite lenN_app. lia.
  - left. now apply frag_tell_err.
  - left. now apply mb_tell_err.
  - left. destruct (Z.ltb_spec (Z.min (inner - KE_OVERHEAD) KE_MAX_MESSAGE_LEN) (Z.of_N (lenN p))); [reflexivity|lia].
  - left. destruct (Z.ltb_spec (Z.min inner other) (Z.of_N (lenN p))); [reflexivity|lia].
  - right. eexists; split; [reflexivity|]. lia.
Qed.

Lemma sends_ok (f : bytes -> result (list bytes)) (P : bytes -> Prop) ms :
  Forall (fun m => exists ws, f m = Ok ws /\ Forall P ws) ms ->
  exists ws, sends f ms = Ok ws /\ Forall P ws.
Proof.
  induction ms as [|m t IH]; intros H.
  - exists []. split; [reflexivity|constructor].
  - inversion H as [|? ? (a & Ea & Pa) Ht]; subst. destruct (IH Ht) as (b & Eb & Pb).
    exists (a ++ b). cbn [sends]. rewrite Ea, Eb. split; [reflexivity|]. apply Forall_app; now split.
Qed.

Theorem stack_honest st : forall base p, wf_stack st base ->
  ((Z.of_N (lenN p) <= stack_mtu st base)%Z ->
     exists ws, stack_send st base p = Ok ws /\ Forall (fun w => (Z.of_N (lenN w) <= base)%Z) ws) /\
  ((stack_mtu st base < Z.of_N (lenN p))%Z -> stack_send st base p = Err E_MTU).
Proof.
  induction st as [|l below IH]; intros base p Hwf; cbn [stack_send stack_mtu].
  - split; intros H.
    + destruct (Z.ltb_spec base (Z.of_N (lenN p))); [lia|]. eexists; split; [reflexivity|]. constructor; [lia|constructor].
    + destruct (Z.ltb_spec base (Z.of_N (lenN p))); [reflexivity|lia].
  - destruct Hwf as [Hl Hb]. split; intros H.
    + destruct (layer_accepts l _ p Hl H) as (ms & E & Hall). rewrite E.
      apply sends_ok. apply Forall_forall. intros m Hin. rewrite Forall_forall in Hall.
      exact (proj1 (IH base m Hb) (Hall m Hin)).
    + destruct (layer_refuses l _ p H) as [E|(m & E & Hm)]; rewrite E; [reflexivity|].
      cbn [sends]. now rewrite (proj2 (IH base m Hb) Hm).
Qed.

Lemma sends_nonempty f ms ws : ms <> [] -> (forall m a, f m = Ok a -> a <> []) -> sends f ms = Ok ws -> ws <> [].
Proof.
  intros Hne Hf. destruct ms as [|m t]; [congruence|]. cbn [sends].
  destruct (f m) as [a| |] eqn:Ea; try discriminate. destruct (sends f t) as [b| |]; try discriminate.
  intros [= <-]. specialize (Hf m a Ea). destruct a; [congruence|discriminate].
Qed.
