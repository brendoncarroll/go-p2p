(* The verdict the C12/C13 runner computes on a queue's results is sound for the
   model: results produced by Model.Queue always pass it.  (So an implementation
   that agrees with the model is never blamed by the predicate.) *)
From Coq Require Import String.
From P2PV Require Import Lib.Base Model.Queue Run.RunFrag Run.RunQueue Proofs.BaseP.
Close Scope N_scope. Open Scope nat_scope.

Lemma qmsg_eqb_refl m : qmsg_eqb m m = true.
Proof. destruct m as [[s d] p]. unfold qmsg_eqb. now rewrite !N.eqb_refl, bytes_eqb_refl. Qed.

(* the runner's check, started in the state of queue q *)
Definition verdict (q : queue) : list qop -> list sx -> sx := p_qseq (q_cap q) (q_mtu q) (q_closed q) (q_items q).

(* shown the model's own result for an operation, the runner accepts it and moves
   to the model's next state: its four arguments are a queue, kept in step *)
Lemma verdict_step q o ops obs :
  verdict q (o :: ops) (sx_of_qout (snd (qstep q o)) :: obs) = verdict (fst (qstep q o)) ops obs.
Proof.
  (* bullets in the order of qop's constructors, sub-bullets in the order of qstep's branches *)
  unfold verdict, qstep. destruct o as [m| |[|]| | |].
  - (* the runner makes the same three tests, two of them with the comparison turned round *)
    destruct (Nat.ltb (q_mtu q) _) eqn:Lm; [|destruct (q_closed q) eqn:Ecl; [|destruct (Nat.ltb (length _) _) eqn:Lc]].
    + (* above the MTU: refused *)
      cbn -[Nat.ltb Nat.leb]. now rewrite Nat.leb_antisym, Lm, andb_false_r.
    + (* closed: refused *)
      cbn -[Nat.ltb Nat.leb]. now rewrite Ecl.
    + (* accepted *)
      cbn -[Nat.ltb Nat.leb]. now rewrite Lm, Nat.leb_antisym, Lc.
    + (* full: refused *)
      cbn -[Nat.ltb Nat.leb]. now rewrite Ecl, Lc, andb_false_r.
  - destruct (q_items q) as [|[[s d] p] t] eqn:Ei; [destruct (q_closed q) eqn:Ecl|].
    + (* nothing queued, closed *) cbn. now rewrite Ecl, Ei.
    + (* nothing queued, open *) cbn. now rewrite Ecl, Ei.
    + (* the oldest message *) cbn -[qmsg_eqb]. now rewrite qmsg_eqb_refl.
  - (* a cancelled Receive whose select took a message, if there was one *)
    destruct (q_items q) as [|[[s d] p] t] eqn:Ei.
    + cbn. now rewrite Ei.
    + cbn -[qmsg_eqb]. now rewrite qmsg_eqb_refl.
  - (* a cancelled Receive that returned the context's error *)
    reflexivity.
  - cbn. now rewrite N.eqb_refl.
  - reflexivity.
  - cbn. now rewrite N.eqb_refl.
Qed.

Theorem model_results_pass_from_any_state ops : forall q, verdict q ops (map sx_of_qout (snd (qrun q ops))) = ok.
Proof.
  induction ops as [|o t IH]; intros q; [reflexivity|].
  cbn [qrun]. rewrite (surjective_pairing (qstep q o)), (surjective_pairing (qrun _ t)). cbn [snd map].
  rewrite verdict_step. apply IH.
Qed.

Theorem model_results_pass ops : forall q,
  length (q_items q) <= q_cap q -> (q_closed q = true -> q_items q = []) ->
  p_qseq (q_cap q) (q_mtu q) (q_closed q) (q_items q) ops (map sx_of_qout (snd (qrun q ops))) = ok.
Proof. intros q _ _. apply model_results_pass_from_any_state. Qed.

Print Assumptions model_results_pass.
