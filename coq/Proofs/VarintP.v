(* encoding/binary as the codecs use it: Uvarint reads back what PutUvarint wrote (with Go's
   10-byte / overflow checks), big-endian words of fixed width, and bounds on encoded lengths. *)
From P2PV Require Import Lib.Base Lib.Varint Proofs.BaseP.
From Coq Require Import Lia ZifyBool ZifyN ZifyNat.
Open Scope N_scope.

Lemma put_uvarint_fuel_len fuel x :
  1 <= lenN (put_uvarint_fuel fuel x) <= N.of_nat fuel + 1.
Proof.
  revert x; induction fuel as [|f IH]; intros x; cbn [put_uvarint_fuel].
  - rewrite lenN_spec; cbn; lia.
  - destruct (x <? 128).
    + rewrite lenN_spec; cbn; lia.
    + rewrite lenN_cons. specialize (IH (x / 128)). lia.
Qed.

Lemma put_uvarint_fuel_short k : forall fuel x, x < 2 ^ (7 * N.of_nat k) -> (1 <= k)%nat ->
  lenN (put_uvarint_fuel fuel x) <= N.of_nat k.
Proof.
  induction k as [|k IH]; intros fuel x Hx Hk; [lia|].
  destruct fuel as [|f]; cbn [put_uvarint_fuel]; [rewrite lenN_spec; cbn; lia|].
  destruct (N.ltb_spec x 128); [rewrite lenN_spec; cbn; lia|].
  rewrite lenN_cons. destruct k as [|k'].
  - change (2 ^ (7 * N.of_nat 1)) with 128 in Hx. lia.
  - assert (Hq : x / 128 < 2 ^ (7 * N.of_nat (S k'))).
    { apply N.div_lt_upper_bound; [lia|]. change 128 with (2 ^ 7). rewrite <- N.pow_add_r.
      replace (7 + 7 * N.of_nat (S k')) with (7 * N.of_nat (S (S k'))) by lia. exact Hx. }
    specialize (IH f (x / 128) Hq ltac:(lia)). lia.
Qed.

Lemma put_uvarint_fuel_wf fuel x : wf_bytes (put_uvarint_fuel fuel x) = true.
Proof.
  revert x; induction fuel as [|f IH]; intros x; cbn [put_uvarint_fuel].
  - cbn. unfold wf_byte. lia.
  - destruct (N.ltb_spec x 128); cbn [wf_bytes forallb].
    + unfold wf_byte. lia.
    + fold (wf_bytes (put_uvarint_fuel f (x / 128))). rewrite IH. unfold wf_byte. lia.
Qed.

(* Core decoding lemma, generalised over position i and accumulator; the shift is 7 * i.
   x < 2 ^ (64 - 7 * i) says that x fits in what is left of 64 bits: it bounds the number of
   bytes by 10 and the tenth byte by 1, which is what Uvarint checks. *)
Lemma uvarint_go_put fuel : forall x i acc r,
  x < 2 ^ N.of_nat fuel -> i <= 9 -> x < 2 ^ (64 - 7 * i) ->
  uvarint_go (put_uvarint_fuel fuel x ++ r) i acc (7 * i) =
    (acc + x * 2 ^ (7 * i), (Z.of_N i + Z.of_N (lenN (put_uvarint_fuel fuel x)))%Z).
Proof.
  induction fuel as [|f IH]; intros x i acc r Hfuel Hi Hx.
  - assert (x = 0) by (cbn in Hfuel; lia). subst x.
    cbn [put_uvarint_fuel app uvarint_go]. change (0 mod 128) with 0.
    rewrite (proj2 (N.eqb_neq i 10)) by lia. cbn [N.ltb N.compare andb]. rewrite Bool.andb_false_r.
    reflexivity.
  - assert (Hi9 : i = 9 -> x < 2) by (intros ->; exact Hx).
    cbn [put_uvarint_fuel]. destruct (N.ltb_spec x 128) as [Hlt|Hge]; cbn [app uvarint_go];
      rewrite (proj2 (N.eqb_neq i 10)) by lia.
    + rewrite (proj2 (N.ltb_lt x 128) Hlt).
      replace ((i =? 9) && (1 <? x)) with false by lia. reflexivity.
    + rewrite (proj2 (N.ltb_ge (x mod 128 + 128) 128)) by lia.
      replace ((x mod 128 + 128) mod 128) with (x mod 128) by lia.
      replace (7 * i + 7) with (7 * (i + 1)) by lia.
      rewrite Nat2N.inj_succ, N.pow_succ_r' in Hfuel.
      replace (64 - 7 * i) with (7 + (64 - 7 * (i + 1))) in Hx by lia.
      rewrite N.pow_add_r in Hx. change (2 ^ 7) with 128 in Hx.
      rewrite IH by lia. rewrite lenN_cons. f_equal; [|lia].
      replace (7 * (i + 1)) with (7 + 7 * i) by lia. rewrite N.pow_add_r. change (2 ^ 7) with 128.
      rewrite (N.div_mod x 128) at 3 by discriminate. ring.
Qed.

Theorem uvarint_put x r : x < 2 ^ 64 ->
  uvarint (put_uvarint x ++ r) = (x, Z.of_N (lenN (put_uvarint x))).
Proof.
  intros Hx. unfold uvarint, put_uvarint.
  pose proof (uvarint_go_put (N.size_nat x) x 0 0 r (size_nat_bound x)) as H.
  replace (7 * 0) with 0 in H by reflexivity.
  rewrite H; [|lia|exact Hx]. change (2 ^ 0) with 1. f_equal; lia.
Qed.

Lemma put_uvarint_wf x : wf_bytes (put_uvarint x) = true.
Proof. apply put_uvarint_fuel_wf. Qed.

Lemma put_uvarint_len_pos x : 1 <= lenN (put_uvarint x).
Proof. unfold put_uvarint. pose proof (put_uvarint_fuel_len (N.size_nat x) x). lia. Qed.

Lemma put_uvarint_short k x : x < 2 ^ (7 * N.of_nat k) -> (1 <= k)%nat -> lenN (put_uvarint x) <= N.of_nat k.
Proof. apply put_uvarint_fuel_short. Qed.

(* reading an uvarint back the way its callers do: value, n >= 1, drop n *)
Lemma uvarint_read x r : x < 2 ^ 64 ->
  exists n, uvarint (put_uvarint x ++ r) = (x, n) /\ (n <? 1)%Z = false /\
            dropN (Z.to_N n) (put_uvarint x ++ r) = r.
Proof.
  intros Hx. exists (Z.of_N (lenN (put_uvarint x))). split; [now apply uvarint_put|].
  pose proof (put_uvarint_len_pos x). split; [lia|]. now rewrite N2Z.id, dropN_app_len.
Qed.

Lemma uvarint_go_n buf : forall i x s v n, uvarint_go buf i x s = (v, n) ->
  (n <= Z.of_N i + Z.of_N (lenN buf))%Z.
Proof.
  induction buf as [|b t IH]; intros i x s v n H; cbn [uvarint_go] in H.
  - inversion H; subst. rewrite lenN_spec; cbn; lia.
  - rewrite lenN_cons.
    destruct (i =? 10); [inversion H; lia|].
    destruct (b <? 128).
    + destruct ((i =? 9) && (1 <? b)); inversion H; lia.
    + apply IH in H. lia.
Qed.

Lemma uvarint_n_le buf v n : uvarint buf = (v, n) -> (n <= Z.of_N (lenN buf))%Z.
Proof. intros H; apply uvarint_go_n in H; lia. Qed.

Lemma be_encode_len w x : lenN (be_encode w x) = N.of_nat w.
Proof. rewrite lenN_spec. f_equal. induction w as [|w IH]; cbn [be_encode length]; [reflexivity|now rewrite IH]. Qed.

Lemma be_encode_wf w x : wf_bytes (be_encode w x) = true.
Proof.
  induction w as [|w IH]; cbn [be_encode]; [reflexivity|].
  cbn [wf_bytes forallb]. fold (wf_bytes (be_encode w x)). rewrite IH.
  unfold wf_byte. lia.
Qed.

Lemma be_decode_acc_app a b acc : be_decode_acc (a ++ b) acc = be_decode_acc b (be_decode_acc a acc).
Proof. revert acc; induction a as [|x a IH]; intros acc; cbn [app be_decode_acc]; [reflexivity|apply IH]. Qed.

Lemma be_decode_app a b : be_decode (a ++ b) = be_decode a * 256 ^ lenN b + be_decode b.
Proof.
  unfold be_decode. rewrite be_decode_acc_app. generalize (be_decode_acc a 0).
  induction b as [|x t IH]; intros acc; cbn [be_decode_acc].
  - rewrite lenN_nil. cbn. lia.
  - rewrite IH, (IH (0 * 256 + x)), lenN_cons, N.pow_succ_r'. lia.
Qed.

(* the digit of weight B^w stands above the w digits below it *)
Lemma mod_pow_succ B w n : B <> 0 ->
  n mod B ^ N.succ w = (n / B ^ w) mod B * B ^ w + n mod B ^ w.
Proof.
  intros HB. rewrite N.pow_succ_r', (N.mul_comm B), N.mod_mul_r by (try apply N.pow_nonzero; exact HB).
  lia.
Qed.

Lemma be_decode_encode_acc w : forall x acc,
  be_decode_acc (be_encode w x) acc = acc * 256 ^ N.of_nat w + x mod 256 ^ N.of_nat w.
Proof.
  induction w as [|w IH]; intros x acc; cbn [be_encode be_decode_acc].
  - cbn. rewrite N.mod_1_r. lia.
  - rewrite IH, Nat2N.inj_succ, mod_pow_succ, N.pow_succ_r' by discriminate. ring.
Qed.

Theorem be_decode_encode w x : x < 256 ^ N.of_nat w -> be_decode (be_encode w x) = x.
Proof. intros H. unfold be_decode. now rewrite be_decode_encode_acc, N.mod_small. Qed.
