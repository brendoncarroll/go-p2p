(* C15: the five channel-id framings of p2pmux.  Everything follows from unframe_header:
   unframing a header followed by anything gives the channel back and leaves the rest. *)
From P2PV Require Import Lib.Base Lib.Varint Model.Mux Proofs.BaseP Proofs.VarintP.
From Coq Require Import Lia ZifyBool ZifyN ZifyNat.
Open Scope N_scope.

Lemma unframe_header k c r :
  valid_chan k c = true -> unframe k (header k c ++ r) = Ok (c, r).
Proof.
  intros Hv. destruct k, c as [s|n]; cbn [valid_chan] in Hv; try discriminate;
    cbn [unframe header kind_width].
  1: { (* string: the length, then as many bytes *)
       apply andb_prop in Hv as [_ Hlen]. rewrite <- app_assoc.
       destruct (uvarint_read (lenN s) (s ++ r)) as (n & -> & -> & ->).
       { assert (2 ^ 63 < 2 ^ 64) by (apply N.pow_lt_mono_r; lia). lia. }
       now destruct (read_app s r _ eq_refl) as (-> & -> & ->). }
  1: { destruct (uvarint_read n r) as (m & -> & -> & ->); [lia|reflexivity]. }
  (* the three fixed widths; the bound is passed by [exact]: [apply] does not finish comparing
     2 ^ 64 with 256 ^ 8 *)
  all: match goal with |- context [be_encode ?w ?x ++ ?t] =>
         destruct (read_app _ t _ (be_encode_len w x)) as (-> & -> & ->) end.
  all: now rewrite be_decode_encode by exact (proj1 (N.ltb_lt _ _) Hv).
Qed.

Lemma roundtrip k c x : valid_chan k c = true -> unframe k (frame k c x) = Ok (c, x).
Proof. apply unframe_header. Qed.

Lemma prefix_free k c c' r r' :
  valid_chan k c = true -> valid_chan k c' = true ->
  header k c ++ r = header k c' ++ r' -> c = c' /\ r = r'.
Proof.
  intros Hc Hc' Heq.
  pose proof (unframe_header k c r Hc) as H1.
  pose proof (unframe_header k c' r' Hc') as H2.
  rewrite Heq in H1. rewrite H1 in H2. inversion H2; auto.
Qed.

Lemma injective k c c' x x' :
  valid_chan k c = true -> valid_chan k c' = true ->
  frame k c x = frame k c' x' -> c = c' /\ x = x'.
Proof. apply prefix_free. Qed.

Lemma chan_eqb_spec a b : reflect (a = b) (chan_eqb a b).
Proof.
  destruct a as [x|x], b as [y|y]; cbn [chan_eqb]; try (constructor; congruence).
  - destruct (bytes_eqb_spec x y); constructor; congruence.
  - destruct (N.eqb_spec x y); constructor; congruence.
Qed.

Lemma isolation k opened c x :
  valid_chan k c = true ->
  dispatch k opened (frame k c x) = if existsb (chan_eqb c) opened then Some (c, x) else None.
Proof. intros Hv. unfold dispatch. now rewrite roundtrip. Qed.

Lemma never_cross k opened c x c' y :
  valid_chan k c = true -> dispatch k opened (frame k c x) = Some (c', y) -> c' = c /\ y = x /\ In c opened.
Proof.
  intros Hv. rewrite isolation by exact Hv.
  destruct (existsb (chan_eqb c) opened) eqn:He; [|discriminate].
  intros H; inversion H; subst. repeat split.
  apply existsb_exists in He as [c0 [Hin Heq]].
  destruct (chan_eqb_spec c' c0); [subst; assumption|discriminate].
Qed.

(* what unframe hands up is a suffix of its input: nothing is invented *)
Lemma unframe_result k b : sure (fun '(_, body) => exists h, b = h ++ body) (unframe k b).
Proof.
  destruct k; cbn [unframe].
  1: { destruct (uvarint b) as [clen n]. destruct (n <? 1)%Z; [exact I|].
       destruct (lenN (dropN (Z.to_N n) b) <? clen); [exact I|].
       exists (takeN (Z.to_N n) b ++ takeN clen (dropN (Z.to_N n) b)).
       now rewrite <- app_assoc, !takeN_dropN. }
  1: { destruct (uvarint b) as [c0 n]. destruct (n <? 1)%Z; [exact I|].
       exists (takeN (Z.to_N n) b). now rewrite takeN_dropN. }
  all: destruct (lenN b <? _); [exact I|]; eexists; symmetry; apply takeN_dropN.
Qed.

Lemma unframe_no_panic k b site : unframe k b <> Panic site.
Proof. exact (sure_no_panic _ _ _ (unframe_result k b)). Qed.

Lemma unframe_suffix k b c body : unframe k b = Ok (c, body) -> exists h, b = h ++ body.
Proof. exact (sure_ok _ _ _ (unframe_result k b)). Qed.
