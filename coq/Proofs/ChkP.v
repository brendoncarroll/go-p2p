(* C08 for the fragmenting layers: the checked receive paths never panic, on any
   byte string, in any state reachable by any sequence of byte strings, and they
   compute exactly what the unchecked models (used by C09/C10) compute.  Model/Chk.v
   also holds the checked parseInitHello of P2PKE, so its no-panic theorem stands
   here too, at the end. *)
From P2PV Require Import Lib.Base Lib.Varint Model.Frag Model.Mbapp Model.Chk
  Proofs.BaseP Proofs.VarintP Proofs.FragP Proofs.MbappP.
From Coq Require Import Lia ZifyBool ZifyN ZifyNat.
Open Scope N_scope.

Lemma slice_from_ok x n site : (0 <= n <= Z.of_N (lenN x))%Z -> slice_from x n site = Ok (dropN (Z.to_N n) x).
Proof.
  intros H. unfold slice_from.
  destruct (Z.ltb_spec n 0); [lia|]. destruct (Z.ltb_spec (Z.of_N (lenN x)) n); [lia|]. reflexivity.
Qed.

Lemma slice_from_more x a y b site : slice_from x a site = Ok y -> (0 <= b <= Z.of_N (lenN y))%Z ->
  slice_from x (a + b) site = Ok (dropN (Z.to_N b) y).
Proof.
  unfold slice_from at 1. destruct (Z.ltb_spec a 0); [discriminate|].
  destruct (Z.ltb_spec (Z.of_N (lenN x)) a); [discriminate|]. intros [= <-]. rewrite lenN_dropN. intros Hb.
  rewrite slice_from_ok, dropN_dropN by lia. do 2 f_equal. lia.
Qed.

Theorem parse_message_chk_eq x : parse_message_chk x = parse_message x.
Proof.
  unfold parse_message_chk, parse_message.
  destruct (uvarint x) as [f0 n0] eqn:E0. destruct (Z.ltb_spec n0 1); [reflexivity|].
  pose proof (uvarint_n_le _ _ _ E0).
  assert (S1 : slice_from x n0 P_FRAG_SLICE = Ok (dropN (Z.to_N n0) x)) by (apply slice_from_ok; lia).
  rewrite S1. set (x1 := dropN (Z.to_N n0) x) in *.
  destruct (uvarint x1) as [f1 n1] eqn:E1. destruct (Z.ltb_spec n1 1); [reflexivity|].
  pose proof (uvarint_n_le _ _ _ E1).
  pose proof (slice_from_more _ _ _ n1 _ S1 ltac:(lia)) as S2.
  rewrite S2. set (x2 := dropN (Z.to_N n1) x1) in *.
  destruct (uvarint x2) as [f2 n2] eqn:E2. destruct (Z.ltb_spec n2 1); [reflexivity|].
  destruct (f2 mod 256 <=? f1 mod 256); [reflexivity|].
  pose proof (uvarint_n_le _ _ _ E2).
  now rewrite (slice_from_more _ _ _ n2 _ S2) by lia.
Qed.

Theorem frag_recv_chk_eq st src pkt : frag_recv_chk st src pkt = frag_recv st src pkt.
Proof.
  unfold frag_recv_chk, frag_recv. rewrite parse_message_chk_eq.
  destruct (parse_message pkt) as [[[[id part] total] data]| |]; try reflexivity.
  destruct (total =? 1); [reflexivity|].
  set (a := match st_get st (src, id) with Some a => a | None => repeat None (N.to_nat total) end).
  unfold parts_set. rewrite (N.eqb_sym total (lenN a)).
  destruct (negb (lenN a =? total)); cbn [orb]; [reflexivity|].
  (* the bounds test of parts_set, the one panic site, repeats the guard's second test: past the guard it passes *)
  destruct (lenN a <=? part); reflexivity.
Qed.

Lemma parse_message_no_panic x site : parse_message x <> Panic site.
Proof.
  unfold parse_message.
  destruct (uvarint x) as [f0 n0]. destruct (n0 <? 1)%Z; [discriminate|].
  destruct (uvarint _) as [f1 n1]. destruct (n1 <? 1)%Z; [discriminate|].
  destruct (uvarint _) as [f2 n2]. destruct (n2 <? 1)%Z; [discriminate|].
  destruct (_ <=? _); discriminate.
Qed.

Lemma frag_recv_no_panic st src pkt site : frag_recv st src pkt <> Panic site.
Proof.
  unfold frag_recv. pose proof (parse_message_no_panic pkt site) as Hp.
  destruct (parse_message pkt) as [[[[id part] total] data]| |]; [|discriminate|intros [= ->]; now apply Hp].
  destruct (_ =? 1); [discriminate|]. destruct (_ || _); [discriminate|]. destruct (all_present _); discriminate.
Qed.

(* every byte string, every state (hence every sequence of byte strings) *)
Theorem frag_recv_chk_no_panic st src pkt site : frag_recv_chk st src pkt <> Panic site.
Proof. rewrite frag_recv_chk_eq. apply frag_recv_no_panic. Qed.

Lemma add_part_chk_eq c idx data : col_wf c -> add_part_chk c idx data = Ok (add_part c idx data).
Proof.
  intros Hwf. unfold add_part_chk, add_part, col_wf in *.
  destruct (N.leb_spec (c_count c) idx); [reflexivity|].
  unfold bit_get. destruct (N.leb_spec (lenN (c_bits c)) idx); [lia|].
  destruct (nth (N.to_nat idx) (c_bits c) false); [reflexivity|].
  set (offset := if idx =? c_count c - 1 then _ else _).
  destruct (Z.ltb_spec offset 0); cbn [orb]; [reflexivity|].
  destruct (Z.leb_spec (Z.of_N (lenN (c_buf c))) offset); [reflexivity|].
  rewrite slice_from_ok by lia.
  unfold bit_set. destruct (N.leb_spec (lenN (c_bits c)) idx); [lia|]. reflexivity.
Qed.

Lemma add_part_wf c idx data : col_wf c -> col_wf (add_part c idx data).
Proof.
  intros Hwf. unfold add_part, col_wf in *.
  destruct (_ <=? _); [assumption|]. destruct (nth _ _ _); [assumption|].
  destruct (_ || _); [assumption|]. cbn [c_bits c_count]. rewrite lenN_spec, set_bit_len, <- lenN_spec. assumption.
Qed.

Lemma parse_mb_chk_eq x : parse_mb_chk x = parse_mb x.
Proof.
  unfold parse_mb_chk, parse_mb. destruct (N.ltb_spec (lenN x) 24); [reflexivity|].
  rewrite slice_from_ok by lia. destruct (N.ltb_spec (lenN x) 24); [lia|]. reflexivity.
Qed.

(* in every well-formed state the checked path equals the unchecked model and
   the next state is well-formed: an invariant of every packet sequence *)
Theorem mb_recv_chk_step mtu st src pkt : mb_wf st ->
  mb_recv_chk mtu st src pkt = mb_recv mtu st src pkt /\
  (forall st' d, mb_recv mtu st src pkt = Ok (st', d) -> mb_wf st').
Proof.
  intros Hwf. unfold mb_recv_chk, mb_recv. rewrite parse_mb_chk_eq.
  destruct (parse_mb pkt) as [[h body]| |]; [|split; [reflexivity|discriminate]..].
  destruct (_ <? _)%Z; [split; [reflexivity|discriminate]|].
  destruct (h_count h <? 2); [split; [reflexivity|intros ? ? [= <- _]; exact Hwf]|].
  set (k := (src, h_origin h, _)).
  set (c := match col_get st k with Some c => c | None => _ end).
  assert (Hc : col_wf c).
  { unfold c. destruct (col_get st k) as [c0|] eqn:E.
    - exact (Hwf _ _ (tget_in ck_eqb_spec E)).
    - unfold col_wf. cbn [c_bits c_count]. rewrite lenN_spec, repeat_length. lia. }
  rewrite (add_part_chk_eq c _ _ Hc). split; [reflexivity|].
  pose proof (add_part_wf c (h_index h) body Hc) as Hc'.
  intros st' d. destruct (forallb _ _); intros [= <- _].
  - intros k' c' Hin. exact (Hwf _ _ (tdel_incl ck_eqb _ Hin)).
  - intros k' c' [[= _ <-]|Hin]; [exact Hc'|]. exact (Hwf _ _ (tdel_incl ck_eqb _ Hin)).
Qed.

Lemma parse_mb_no_panic x site : parse_mb x <> Panic site.
Proof. unfold parse_mb. destruct (_ <? 24); discriminate. Qed.

Lemma mb_recv_no_panic mtu st src pkt site : mb_recv mtu st src pkt <> Panic site.
Proof.
  unfold mb_recv. pose proof (parse_mb_no_panic pkt site) as Hp.
  destruct (parse_mb pkt) as [[h body]| |]; [|discriminate|intros [= ->]; now apply Hp].
  destruct (_ <? _)%Z; [discriminate|]. destruct (_ <? 2); [discriminate|]. destruct (forallb _ _); discriminate.
Qed.

Fixpoint mb_run (mtu : Z) (st : mb_state) (pkts : list (bytes * bytes)) : result mb_state :=
  match pkts with
  | [] => Ok st
  | (src, pkt) :: t =>
      match mb_recv_chk mtu st src pkt with
      | Ok (st', _) => mb_run mtu st' t
      | Err _ => mb_run mtu st t           (* the packet is dropped, the node keeps serving *)
      | Panic s => Panic s
      end
  end.

Theorem mb_run_no_panic mtu : forall pkts st site, mb_wf st -> mb_run mtu st pkts <> Panic site.
Proof.
  induction pkts as [|[src pkt] t IH]; intros st site Hwf; cbn [mb_run]; [discriminate|].
  destruct (mb_recv_chk_step mtu st src pkt Hwf) as [E Hnext]. rewrite E.
  destruct (mb_recv mtu st src pkt) as [[st' d]| |] eqn:Er.
  - apply IH. eapply Hnext; eauto.
  - now apply IH.
  - exfalso. eapply mb_recv_no_panic; eauto.
Qed.

Lemma mb_wf_init : mb_wf [].
Proof. intros k c []. Qed.

Fixpoint frag_run (st : frag_state) (pkts : list (bytes * bytes)) : result frag_state :=
  match pkts with
  | [] => Ok st
  | (src, pkt) :: t =>
      match frag_recv_chk st src pkt with
      | Ok (st', _) => frag_run st' t
      | Err _ => frag_run st t
      | Panic s => Panic s
      end
  end.

Theorem frag_run_no_panic : forall pkts st site, frag_run st pkts <> Panic site.
Proof.
  induction pkts as [|[src pkt] t IH]; intros st site; cbn [frag_run]; [discriminate|].
  destruct (frag_recv_chk st src pkt) as [[st' d]| |] eqn:Er; [apply IH|apply IH|].
  exfalso. eapply frag_recv_chk_no_panic; eauto.
Qed.

Lemma two_left (x : bytes) (k : nat) : length x = (k + 2)%nat -> exists hi lo, skipn k x = [hi; lo].
Proof.
  intros H. assert (L : length (skipn k x) = 2%nat) by (rewrite skipn_length; lia).
  destruct (skipn k x) as [|hi [|lo [|z t]]]; cbn in L; try lia. eauto.
Qed.

Theorem parse_init_hello_no_panic body site : parse_init_hello_chk body <> Panic site.
Proof.
  unfold parse_init_hello_chk. destruct (Z.ltb_spec (Z.of_nat (length body)) 2) as [L|L]; [discriminate|].
  rewrite slice_from_ok, dropN_skipn by (rewrite lenN_spec; lia).
  destruct (two_left body (length body - 2)) as [hi [lo Hs]]; [lia|].
  replace (N.to_nat (Z.to_N (Z.of_nat (length body) - 2))) with (length body - 2)%nat by lia.
  rewrite Hs. unfold be16. set (n := Z.of_nat (length body)) in *. set (start := (n - 2 - Z.of_N (256 * hi + lo))%Z).
  destruct (Z.ltb_spec start 0) as [S|S]; [discriminate|].
  (* the bounds of body[start : len-2]: be16 is not negative, so start <= len - 2 *)
  destruct (false || (n - 2 <? start) || (n <? n - 2))%Z eqn:E2; [lia|discriminate].
Qed.
