(* The channel never panics: neither the "session became ready outside the
   prospective slot" panic of Channel.Deliver nor the missing cached handshake
   message of Session.writeHandshake is reachable, in any history. *)
From P2PV Require Import Lib.Base Model.Handshake Model.Channel Proofs.BaseP Proofs.ChannelP.
From P2PV Require Proofs.HandshakeP.
From Coq Require Import Lia ZifyBool ZifyN.
Open Scope N_scope.

(* The handshake message a session may have to (re)send is cached.  The cache has
   its four places: set_true past the end of a list would cache nothing. *)
Definition cache_ok (s : sess) : Prop :=
  length (s_cache s) = 4%nat /\
  (s_init s = true -> s_hs s = 0 -> cached s 0 = true) /\
  (s_init s = false -> s_hs s = 1 -> cached s 1 = true) /\
  (s_init s = true -> s_hs s = 2 -> cached s 2 = true) /\
  (s_init s = false -> s_hs s = 3 -> cached s 3 = true).

Lemma write_handshake_cached s : cache_ok s -> exists r, write_handshake s = Ok r.
Proof.
  intros (_ & C0 & C1 & C2 & C3). unfold write_handshake.
  destruct (4 <=? s_hs s); [eauto|].
  destruct (s_init s) eqn:Ei; cbn [andb negb].
  - destruct (N.eqb_spec (s_hs s) 0) as [E|_]; [rewrite (C0 eq_refl E); eauto|].
    destruct (N.eqb_spec (s_hs s) 2) as [E|_]; [rewrite (C2 eq_refl E)|]; eauto.
  - destruct (N.eqb_spec (s_hs s) 1) as [E|_]; [rewrite (C1 eq_refl E); eauto|].
    destruct (N.eqb_spec (s_hs s) 3) as [E|_]; [rewrite (C3 eq_refl E)|]; eauto.
Qed.

Lemma set_true_len l i : length (set_true l i) = length l.
Proof. revert i; induction l as [|b t IH]; intros [|i]; cbn; auto. Qed.
Lemma set_true_nth l i : (i < length l)%nat -> nth i (set_true l i) false = true.
Proof. revert i; induction l as [|b t IH]; intros [|i] H; cbn in *; try lia; auto. apply IH. lia. Qed.

(* The three handshake messages a session caches when it moves on: the initiator its
   InitDone (state 2), the responder its RespDone (state 3) and its RespHello (state 1). *)
Lemma cache_ok_with_hs s hs i nn :
  cache_ok s ->
  ((s_init s = true /\ hs = 2 /\ i = 2%nat) \/ (s_init s = false /\ hs = 3 /\ i = 3%nat) \/ (s_init s = false /\ hs = 1 /\ i = 1%nat)) ->
  cache_ok (with_hs s hs (Some i) nn).
Proof.
  intros (L & _) Hc. unfold cache_ok, with_hs, cached. cbn [s_cache s_init s_hs].
  rewrite set_true_len. split; [exact L|].
  destruct Hc as [(Ei & -> & ->)|[(Ei & -> & ->)|(Ei & -> & ->)]]; rewrite Ei;
    repeat split; intros; try discriminate; try lia; apply set_true_nth; lia.
Qed.

(* from stage 4 on no handshake message is owed *)
Lemma cache_ok_far s hs c nn l sn : 4 <= hs -> length c = 4%nat -> cache_ok (mkS (s_init s) hs c nn l sn).
Proof. intros H L. unfold cache_ok. cbn. repeat split; auto; intros; lia. Qed.

Lemma cache_ok_new b : cache_ok (new_sess b).
Proof. unfold cache_ok, new_sess, cached. destruct b; cbn; repeat split; intros; try discriminate; lia. Qed.

Lemma advanced_cache se w se' a : advanced se w se' a -> cache_ok (cs se) -> cache_ok (cs se').
Proof.
  intros A Hc. pose proof Hc as (L & _). destruct A as [|Ei E0|Ei E1|Ei E2|n l sn Ecr]; cbn [cs upd].
  - exact Hc.
  - apply cache_ok_with_hs; [exact Hc|left; auto].
  - apply cache_ok_with_hs; [exact Hc|right; left; auto].
  - apply cache_ok_far; [lia|exact L].
  - apply cache_ok_far; [lia|exact L].
Qed.

Lemma sess_deliver_no_panic se w p : cache_ok (cs se) -> sess_deliver se w <> Panic p.
Proof.
  intros Hc E. pose proof (sess_deliver_adv se w) as A. rewrite E in A. destruct A as (se' & A & W).
  destruct (write_handshake_cached _ (advanced_cache _ _ _ _ A Hc)) as [r W']. congruence.
Qed.

Section NP.
Variable accept : N -> bool.

Definition ocache (x : option csess) : Prop := match x with Some se => cache_ok (cs se) | None => True end.
Definition odiff (x y : option csess) : Prop :=
  match x, y with Some a, Some b => c_tag a <> c_tag b | _, _ => True end.
(* The loop of Channel.Deliver takes its index i from a snapshot of the slots but
   finds the session by its tag, wherever it now is, in slot j; the panic test
   compares i with 2.  With distinct tags i and j name the same session. *)
Definition tags_distinct (ch : chan) : Prop :=
  odiff (ch_s0 ch) (ch_s1 ch) /\ odiff (ch_s0 ch) (ch_s2 ch) /\ odiff (ch_s1 ch) (ch_s2 ch).

Definition InvP (ch : chan) : Prop :=
  Inv accept ch /\ (ocache (ch_s0 ch) /\ ocache (ch_s1 ch) /\ ocache (ch_s2 ch)) /\ tags_distinct ch.

Lemma invp_new key : InvP (new_chan key).
Proof. split; [apply inv_new|]. cbn. repeat split; exact I. Qed.

Definition fresh_tag (ch : chan) (t : N) : Prop :=
  has_tag t (ch_s0 ch) = false /\ has_tag t (ch_s1 ch) = false /\ has_tag t (ch_s2 ch) = false.

Lemma has_tag_same t se se' : c_tag se' = c_tag se -> has_tag t (Some se') = has_tag t (Some se).
Proof. intros E. cbn. now rewrite E. Qed.

(* What InvP adds to Inv, and that no tag of the set F is in use.  Every move of
   sessions between slots keeps this: no operation but the creation of a session
   brings a tag in.  F is the one tag a Deliver may hand out (eq fresh), every tag
   not in use where expiry must not bring one in (fresh_tag ch), or empty. *)
Definition held (F : N -> Prop) (ch : chan) : Prop :=
  (ocache (ch_s0 ch) /\ ocache (ch_s1 ch) /\ ocache (ch_s2 ch)) /\ tags_distinct ch /\
  forall t, F t -> fresh_tag ch t.

Lemma held_upd F ch j se se' : held F ch -> slot ch j = Some se ->
  c_tag se' = c_tag se -> cache_ok (cs se') -> held F (set_slot ch j (Some se')).
Proof.
  intros (K & T & HF) Es Et Kc. unfold held, tags_distinct, fresh_tag, odiff, has_tag in *.
  destruct j as [|[|[|j]]]; cbn in Es |- *; [..|discriminate]; rewrite Es in *; rewrite Et.
  all: split; [tauto|split; [exact T|exact HF]].
Qed.

Lemma odiff_none x : odiff x None /\ odiff None x.
Proof. now destruct x. Qed.

Lemma held_drop F ch j : held F ch -> held F (set_slot ch j None).
Proof.
  intros (K & T & HF). unfold held, tags_distinct, fresh_tag in *.
  pose proof (odiff_none (ch_s0 ch)). pose proof (odiff_none (ch_s1 ch)). pose proof (odiff_none (ch_s2 ch)).
  destruct j as [|[|[|j]]]; cbn; (split; [tauto|split; [tauto|intros t Ht; specialize (HF t Ht); tauto]]).
Qed.

Lemma held_retire F ch : held F ch -> held F (set_current ch None).
Proof.
  intros (K & T & HF). unfold held, tags_distinct, fresh_tag in *. cbn.
  pose proof (odiff_none (ch_s1 ch)). pose proof (odiff_none (ch_s2 ch)).
  split; [tauto|split; [tauto|intros t Ht; specialize (HF t Ht); tauto]].
Qed.

Lemma held_promoted F ch se se' k : held F ch -> slot ch 2 = Some se ->
  c_tag se' = c_tag se -> cache_ok (cs se') -> held F (promoted ch se' k).
Proof.
  intros (K & T & HF) Es Et Kc. unfold held, tags_distinct, fresh_tag, odiff, has_tag in *. cbn in Es |- *.
  rewrite Es in *. rewrite Et.
  split; [tauto|split; [destruct (ch_s1 ch); tauto|intros t Ht; specialize (HF t Ht); tauto]].
Qed.

Lemma held_cache F ch j se : held F ch -> slot ch j = Some se -> cache_ok (cs se).
Proof.
  intros ((K0 & K1 & K2) & _) Es.
  destruct j as [|[|[|j]]]; cbn in Es; [rewrite Es in K0|rewrite Es in K1|rewrite Es in K2|discriminate]; assumption.
Qed.

Lemma find_tag_has ch t j : find_tag ch t = Some j -> has_tag t (slot ch j) = true.
Proof.
  unfold find_tag. destruct (has_tag t (slot ch 0)) eqn:E0; [intros [= <-]; exact E0|].
  destruct (has_tag t (slot ch 1)) eqn:E1; [intros [= <-]; exact E1|].
  destruct (has_tag t (slot ch 2)) eqn:E2; [intros [= <-]; exact E2|discriminate].
Qed.

Lemma find_tag_2 ch t : has_tag t (ch_s0 ch) = false -> has_tag t (ch_s1 ch) = false -> has_tag t (ch_s2 ch) = true ->
  find_tag ch t = Some 2%nat.
Proof. intros H0 H1 H2. unfold find_tag. cbn [slot]. now rewrite H0, H1, H2. Qed.

(* during the loop: the sessions that the snapshot holds for the other two slots are not the prospective one *)
Definition tagrel (snap : list (option csess)) (ch : chan) : Prop :=
  forall i se0, i <> 2%nat -> nth i snap None = Some se0 -> has_tag (c_tag se0) (ch_s2 ch) = false.

(* A session that becomes ready is not ready before, so (Inv) it sits in slot 2; the
   loop found it there under the tag of snapshot entry i, and tagrel leaves i = 2 only. *)
Lemma became_prospective snap ch i se0 j se se' :
  Inv accept ch -> tagrel snap ch ->
  nth i snap None = Some se0 -> find_tag ch (c_tag se0) = Some j -> slot ch j = Some se ->
  negb (c_ready se) && c_ready se' = true -> i = 2%nat.
Proof.
  intros HI HR Esnap Ef Es. rewrite (became_eq accept ch j se se' HI Es).
  intros (->%Nat.eqb_eq & _)%andb_true_iff. destruct (Nat.eq_dec i 2) as [|Ne]; [assumption|].
  apply find_tag_has in Ef. cbn [slot] in Ef. rewrite (HR i se0 Ne Esnap) in Ef. discriminate.
Qed.

Lemma visit_held F snap ch j se w se' a ch2 okp :
  Inv accept ch -> held F ch -> tagrel snap ch -> slot ch j = Some se -> advanced se w se' a ->
  visit accept ch j se se' = (ch2, okp) -> held F ch2 /\ tagrel snap ch2.
Proof.
  intros HI HH HR Es A.
  pose proof (advanced_tag _ _ _ _ A) as Et.
  pose proof (advanced_cache _ _ _ _ A (held_cache _ _ _ _ HH Es)) as Kc.
  rewrite (visit_eq accept ch j se se' HI Es).
  destruct (Nat.eqb j 2 && c_ready se') eqn:B.
  - (* promoted or refused: the prospective slot is empty afterwards *)
    apply andb_true_iff in B as (->%Nat.eqb_eq & _).
    assert (R0 : forall c, ch_s2 c = None -> tagrel snap c) by (intros c E i0 s0 _ _; now rewrite E).
    cbv zeta. destruct (check_key _ _ _); intros [= <- <-].
    + split; [now apply (held_promoted F ch se)|now apply R0].
    + split; [exact (held_drop F ch 2 HH)|now apply R0].
  - intros [= <- <-]. split; [now apply (held_upd F ch j se)|].
    intros i0 s0 Ne E0. specialize (HR i0 s0 Ne E0).
    destruct j as [|[|[|j]]]; cbn [slot set_slot ch_s2] in Es |- *; try exact HR.
    rewrite Es in HR. now rewrite (has_tag_same _ _ _ Et).
Qed.

(* the loop has not panicked; where it stopped or fell through (inr), Inv and held F hold *)
Definition np_res (F : N -> Prop) (x : result (chan * dres) + chan) : Prop :=
  match x with
  | inl (Panic _) => False
  | inl (Err _) => True
  | inl (Ok (ch', _)) | inr ch' => Inv accept ch' /\ held F ch'
  end.

Lemma loop_np F snap w : forall ord ch, Inv accept ch -> held F ch -> tagrel snap ch ->
  np_res F (deliver_loop accept snap w ord ch).
Proof.
  induction ord as [|i t IH]; intros ch HI HH HR; cbn [deliver_loop]; [exact (conj HI HH)|].
  pose proof (IH ch HI HH HR) as Hskip.
  destruct (nth i snap None) as [se0|] eqn:Esnap; [|exact Hskip].
  destruct (match w_kind w with MIH => _ | _ => false end); [exact Hskip|].
  destruct (find_tag ch (c_tag se0)) as [j|] eqn:Ef; [|exact Hskip].
  destruct (slot ch j) as [se|] eqn:Es; [|exact Hskip].
  destruct (sess_deliver se w) as [[|se' a o]| |p] eqn:Ed; [exact Hskip| |exact I|].
  2: exact (sess_deliver_no_panic _ _ _ (held_cache _ _ _ _ HH Es) Ed).
  pose proof (sess_deliver_adv se w) as A. rewrite Ed in A.
  cbv zeta. destruct (_ && negb (Nat.eqb i 2)) eqn:P.
  { apply andb_true_iff in P as (B & Ne). rewrite (became_prospective snap ch i se0 j se se' HI HR Esnap Ef Es B) in Ne. discriminate. }
  fold (visit accept ch j se se'). destruct (visit accept ch j se se') as [ch2 okp] eqn:Ev.
  destruct (visit_inv accept _ _ _ _ _ _ _ _ HI Es A Ev) as (I2 & _).
  destruct (visit_held F snap _ _ _ _ _ _ _ _ HI HH HR Es A Ev) as (H2 & R2).
  destruct okp; cbn [negb]; [|exact (conj I2 H2)].
  destruct a; [destruct (has_tag _ _); exact (conj I2 H2)|].
  destruct o as [k|]; [exact (conj I2 H2)|exact (IH ch2 I2 H2 R2)].
Qed.

Lemma invp_held (F : N -> Prop) ch : InvP ch -> (forall t, F t -> fresh_tag ch t) -> Inv accept ch /\ held F ch.
Proof. intros (HI & K & T) HF. exact (conj HI (conj K (conj T HF))). Qed.

Lemma held_invp (F : N -> Prop) ch : Inv accept ch -> held F ch -> InvP ch.
Proof. intros HI (K & T & _). exact (conj HI (conj K T)). Qed.

Lemma odiff_has a y : odiff y (Some a) <-> has_tag (c_tag a) y = false.
Proof. destruct y as [b|]; cbn; [apply iff_sym, N.eqb_neq|tauto]. Qed.

(* a new prospective session, under a tag not in use *)
Lemma invp_install ch x : InvP ch -> fresh_tag ch (c_tag x) -> cache_ok (cs x) -> slot_ok ch 2 (Some x) ->
  InvP (set_slot ch 2 (Some x)).
Proof.
  intros (HI & K & (T01 & _)) (F0 & F1 & _) Kc S.
  split; [now apply inv_set_slot|]. unfold tags_distinct. cbn.
  apply odiff_has in F0, F1. tauto.
Qed.

Theorem chan_deliver_np fresh ch w : InvP ch -> fresh_tag ch fresh ->
  sure (fun '(ch', _) => InvP ch') (chan_deliver accept fresh ch w).
Proof.
  intros HP HF. unfold chan_deliver.
  destruct (invp_held (eq fresh) ch HP) as (HI & HH); [now intros t <-|].
  (* at entry the snapshot is the slots themselves, so tagrel is tags_distinct for the pairs (0, 2) and (1, 2),
     read the other way round; an index from 3 on is outside the snapshot *)
  assert (HR : tagrel (ch_slots ch) ch).
  { destruct HP as (_ & _ & (_ & T02 & T12)). intros i se0 Ne E.
    destruct i as [|[|[|[|i]]]]; cbn in E; try discriminate; [| |contradiction]; apply odiff_has; rewrite <- E.
    - destruct (ch_s0 ch), (ch_s2 ch); cbn in *; auto.
    - destruct (ch_s1 ch), (ch_s2 ch); cbn in *; auto. }
  pose proof (loop_np (eq fresh) (ch_slots ch) w (deliver_order w) ch HI HH HR) as HL.
  destruct (deliver_loop accept (ch_slots ch) w (deliver_order w) ch) as [[[c r]| |]|ch1]; cbn in HL;
    [exact (held_invp _ _ (proj1 HL) (proj2 HL))|exact I|contradiction|].
  destruct HL as (I1 & H1). pose proof (held_invp _ _ I1 H1) as P1.
  (* only an InitHello creates a session; every other exit returns ch1 as it is *)
  destruct (w_kind w); try exact P1.
  destruct (existsb _ _); [exact P1|]. destruct (w_ts w <? ch_rts ch1); [exact P1|].
  destruct (negb _); [exact P1|].
  (* R: a responder at stage 1 with its RespHello cached, under the tag that held (eq fresh) has kept unused *)
  set (R := mkCS _ fresh _ _ _ _ 0).
  assert (P2 : InvP (set_slot ch1 2 (Some R))).
  { apply invp_install; [exact P1|exact (proj2 (proj2 H1) fresh eq_refl)| |apply slot_ok_responder].
    apply cache_ok_with_hs; [apply cache_ok_new|right; right; auto]. }
  destruct (slot ch1 2) as [X|] eqn:EX; [|exact P2].
  destruct (if s_init (cs X) then _ else _); [|exact P2].
  (* the prospective session X keeps the slot and re-sends its message, which is cached *)
  destruct (write_handshake_cached (cs X) (held_cache _ _ 2 _ H1 EX)) as [[k|] ->]; exact P1.
Qed.

Lemma expire_np ch : InvP ch -> InvP (expire ch) /\ (forall t, fresh_tag ch t -> fresh_tag (expire ch) t).
Proof.
  intros HP. destruct (invp_held (fresh_tag ch) ch HP (fun t H => H)) as (HI & HH).
  assert (H1 : held (fresh_tag ch) (expire ch)).
  { apply expire_ind; [intros c j; apply held_drop|intros c; apply held_retire|exact HH]. }
  split; [|apply H1]. exact (held_invp _ _ (expire_inv accept ch HI) H1).
Qed.

Lemma handshake_np ch : InvP ch -> InvP (fst (chan_handshake ch)).
Proof. intros HP. exact (proj1 (expire_np ch HP)). Qed.

Lemma rekey_np fresh rank ts ch : InvP ch -> fresh_tag ch fresh -> InvP (fst (chan_rekey fresh rank ts ch)).
Proof.
  intros HP HF. unfold chan_rekey. destruct (expire_np ch HP) as (P1 & F1).
  destruct (slot (expire ch) 2) eqn:E2; [exact P1|].
  apply handshake_np, invp_install; [exact P1|exact (F1 fresh HF)|apply cache_ok_new|apply slot_ok_initiator].
Qed.

Lemma send_np ch : InvP ch -> InvP (fst (chan_send ch)).
Proof.
  intros HP. apply (held_invp (fun _ => False)); [exact (send_inv accept ch (proj1 HP))|].
  destruct (expire_np ch HP) as (P1 & _). destruct (invp_held (fun _ => False) _ P1) as (_ & H1); [contradiction|].
  rewrite chan_send_eq. destruct (ch_s1 (expire ch)) as [se|] eqn:E1; [|exact H1].
  destruct (send (cs se)) as [[s' c]|] eqn:Es; [|exact H1].
  apply (held_upd _ _ 1 se); [exact H1|exact E1|reflexivity|].
  (* Send steps the nonce only (send_spec); cache_ok reads role, stage and cache: it holds of the new session by conversion *)
  apply HandshakeP.send_spec in Es as (_ & _ & _ & ->). exact (held_cache _ _ 1 _ H1 E1).
Qed.

Lemma age_np d ch : InvP ch -> InvP (chan_age d ch).
Proof. destruct ch as [k [a|] [b|] [c|] r ts lr]; exact (fun H => H). Qed.

(* the tag that an operation gives the session it creates is not in use *)
Definition op_fresh (ch : chan) (o : cop) : Prop :=
  match o with ODeliver f _ => fresh_tag ch f | ORekey f _ _ => fresh_tag ch f | _ => True end.

(* one operation keeps InvP and does not panic, if the tag it gives a new session is not in use *)
Lemma cstep_np ch o : InvP ch -> op_fresh ch o -> sure (fun '(ch', _) => InvP ch') (cstep accept ch o).
Proof.
  intros HP HF. destruct o as [f w|f rank ts| | |d]; cbn [cstep op_fresh sure] in *.
  - pose proof (chan_deliver_np f ch w HP HF) as G. now destruct (chan_deliver accept f ch w) as [[c r]| |].
  - now apply rekey_np.
  - now apply handshake_np.
  - now apply send_np.
  - now apply age_np.
Qed.

Fixpoint never_panics (ch : chan) (ops : list cop) : Prop :=
  match ops with
  | [] => True
  | o :: t => op_fresh ch o ->
              match cstep accept ch o with
              | Panic _ => False
              | Ok (ch', _) => never_panics ch' t
              | Err _ => True
              end
  end.

Theorem channel_never_panics : forall ops ch, InvP ch -> never_panics ch ops.
Proof.
  induction ops as [|o t IH]; intros ch HP; cbn [never_panics]; [exact I|]. intros HF.
  pose proof (cstep_np ch o HP HF) as G.
  destruct (cstep accept ch o) as [[c r]| |]; [exact (IH c G)|exact I|exact G].
Qed.

End NP.
