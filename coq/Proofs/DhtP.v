(* C20: dhtIterate for an arbitrary callback (termination, invariants), the ask log
   of a callback that asks at most once per call, and the notions in which the
   results of the four wrappers are stated.  The wrappers themselves are in DhtP2. *)
From P2PV Require Import Lib.Base Model.Distance Model.Dht Proofs.BaseP Proofs.DistanceP.
From Coq Require Import Lia ZifyBool ZifyN ZifyNat Sorting.Permutation Arith.Wf_nat.
Open Scope N_scope.

Lemma mem_id_In x l : mem_id x l = true <-> In x l.
Proof.
  induction l as [|h t IH]; cbn [mem_id In].
  - split; [discriminate|contradiction].
  - rewrite Bool.orb_true_iff, IH. destruct (bytes_eqb_spec x h) as [->|E].
    + split; auto.
    + split; intros [H|H]; [discriminate|now right|congruence|now right].
Qed.

Lemma mem_id_false x l : mem_id x l = false <-> ~ In x l.
Proof. rewrite <- mem_id_In. destruct (mem_id x l); split; congruence. Qed.

(* sort_nodes is DistanceP's sort_by at n_id *)
Lemma sort_nodes_perm key l : Permutation (sort_nodes key l) l.
Proof. exact (sort_by_perm n_id key l). Qed.

Lemma admit_peers_In key cur visited news : forall queue x,
  In x (admit_peers key cur visited queue news) -> In x queue \/ In x news.
Proof.
  induction news as [|h t IH]; intros queue x; cbn [admit_peers In]; [now left|].
  assert (Hskip : In x (admit_peers key cur visited queue t) -> In x queue \/ h = x \/ In x t).
  { intros H. destruct (IH _ _ H); auto. }
  destruct (negb (distance_lt key (n_id h) (n_id cur))); [exact Hskip|].
  destruct (mem_id (n_id h) visited); [exact Hskip|].
  destruct (mem_id (n_id h) (map n_id queue)); [exact Hskip|].
  intros H. destruct (IH _ _ H) as [H1|H1]; [|auto].
  apply in_snoc in H1 as [H1|H1]; auto.
Qed.

Section Generic.
  Context {S : Type} (fn : S -> node -> S * option (list node)).

  Definition ids (l : list node) : list bytes := map n_id l.

  (* every id a callback ever hands back lies in a finite universe U *)
  Definition answers_in (U : list bytes) : Prop :=
    forall st nd st' news, fn st nd = (st', Some news) -> forall x, In x news -> In (n_id x) U.

  (* Every round either shortens the queue or visits a new id of U; the visited
     ids are distinct, so there are at most length U of the latter. *)
  Lemma iterate_terminates U key n : answers_in U ->
    forall m len queue visited st,
      NoDup visited -> incl visited U -> (length U - length visited <= m)%nat ->
      (length queue <= len)%nat -> (forall x, In x queue -> In (n_id x) U) ->
      exists fuel, iterate fn fuel key n queue visited st <> None.
  Proof.
    intros HU. induction m as [m IHm] using lt_wf_ind.
    induction len as [len IHl] using lt_wf_ind.
    intros queue visited st Hnd Hvis Hm Hlen Hq.
    destruct (firstn n (sort_nodes key queue)) as [|nd rest] eqn:Efirst.
    - exists 1%nat. cbn [iterate]. rewrite Efirst. discriminate.
    - assert (Hsub : forall x, In x (nd :: rest) -> In x queue).
      { intros x Hx. rewrite <- Efirst in Hx. apply firstn_In in Hx.
        now apply (Permutation_in _ (sort_nodes_perm key queue)). }
      assert (Hrestlen : (length rest < length queue)%nat).
      { pose proof (firstn_length n (sort_nodes key queue)) as Hl.
        pose proof (Permutation_length (sort_nodes_perm key queue)) as Hp.
        rewrite Efirst in Hl. cbn [length] in Hl. lia. }
      destruct (mem_id (n_id nd) visited) eqn:Evis.
      + destruct (IHl (length rest) ltac:(lia) rest visited st Hnd Hvis Hm (le_n _)) as [f Hf].
        { intros x Hx. apply Hq, Hsub. now right. }
        exists (Datatypes.S f). cbn [iterate]. now rewrite Efirst, Evis.
      + destruct (fn st nd) as [st' [news|]] eqn:Efn.
        * assert (Hnd' : NoDup (n_id nd :: visited)).
          { constructor; [now apply mem_id_false|assumption]. }
          assert (Hvis' : incl (n_id nd :: visited) U).
          { apply incl_cons; [apply Hq, Hsub; now left|assumption]. }
          pose proof (NoDup_incl_length Hnd' Hvis') as Hcard. cbn [length] in Hcard.
          set (q' := admit_peers key nd (n_id nd :: visited) rest news).
          destruct (IHm (length U - Datatypes.S (length visited))%nat ltac:(lia) (length q') q'
                        (n_id nd :: visited) st' Hnd' Hvis' (le_n _) (le_n _)) as [f Hf].
          { intros x Hx. apply admit_peers_In in Hx as [Hx|Hx]; [apply Hq, Hsub; now right|].
            eapply HU; eauto. }
          exists (Datatypes.S f). cbn [iterate]. now rewrite Efirst, Evis, Efn.
        * exists 1%nat. cbn [iterate]. rewrite Efirst, Evis, Efn. discriminate.
  Qed.

  Lemma dht_iterate_terminates U initial key n st0 :
    answers_in U -> (forall x, In x initial -> In (n_id x) U) ->
    exists fuel, dht_iterate fn fuel initial key n st0 <> None.
  Proof.
    intros HU Hi. unfold dht_iterate. destruct initial as [|i0 it]; [exists O; discriminate|].
    destruct (n <? 1)%Z; [exists O; discriminate|].
    destruct (iterate_terminates U key (Z.to_nat n) HU _ _ (i0 :: it) [] st0
                (NoDup_nil _) (incl_nil_l _) (le_n _) (le_n _) Hi) as [f Hf].
    exists f. destruct (iterate fn f key (Z.to_nat n) (i0 :: it) [] st0); [discriminate|contradiction].
  Qed.

  Lemma iterate_inv (P : S -> list bytes -> Prop) :
    (forall st nd visited st' r, P st visited -> ~ In (n_id nd) visited ->
        fn st nd = (st', r) -> P st' (n_id nd :: visited)) ->
    forall fuel key n queue visited st st_f vis_f,
      P st visited -> iterate fn fuel key n queue visited st = Some (st_f, vis_f) -> P st_f vis_f.
  Proof.
    intros Hstep. induction fuel as [|f IH]; intros key n queue visited st st_f vis_f HP Hit; [discriminate|].
    cbn [iterate] in Hit. destruct (firstn n (sort_nodes key queue)) as [|nd rest].
    - injection Hit as <- <-. exact HP.
    - destruct (mem_id (n_id nd) visited) eqn:Evis; [eapply IH; eauto|].
      apply mem_id_false in Evis. destruct (fn st nd) as [st' r] eqn:Efn.
      pose proof (Hstep st nd visited st' r HP Evis Efn) as HP'.
      destruct r as [news|]; [eapply IH; eauto|]. injection Hit as <- <-. exact HP'.
  Qed.

  Lemma dht_iterate_inv (P : S -> list bytes -> Prop) fuel initial key n st0 st vis :
    (forall st nd visited st' r, P st visited -> ~ In (n_id nd) visited ->
        fn st nd = (st', r) -> P st' (n_id nd :: visited)) ->
    P st0 [] -> dht_iterate fn fuel initial key n st0 = Some (Ok (st, vis)) -> P st vis.
  Proof.
    intros Hstep H0. unfold dht_iterate. destruct initial as [|i0 it]; [now intros [= <- <-]|].
    destruct (n <? 1)%Z; [discriminate|].
    destruct (iterate fn fuel key (Z.to_nat n) (i0 :: it) [] st0) as [[s v]|] eqn:E; [|discriminate].
    intros [= <- <-]. revert E. now apply iterate_inv.
  Qed.

  (* dhtIterate panics on n < 1 only; Initial = [] returns before the test *)
  Lemma dht_iterate_no_panic fuel initial key n st0 s :
    (initial <> [] -> (1 <= n)%Z) -> dht_iterate fn fuel initial key n st0 <> Some (Panic s).
  Proof.
    intros Hn. unfold dht_iterate. destruct initial as [|i0 it]; [discriminate|].
    destruct (Z.ltb_spec n 1); [specialize (Hn ltac:(discriminate)); lia|].
    destruct (iterate _ _ _ _ _ _ _); discriminate.
  Qed.
End Generic.

Definition is_nearest (key c : bytes) (l : list bytes) : Prop :=
  In c l /\ forall v, In v l -> distance_lt key v c = false.

(* what a Closest field holds with respect to the ids l it has been offered *)
Definition nearest_opt (key : bytes) (c : option bytes) (l : list bytes) : Prop :=
  match c with Some c => is_nearest key c l | None => l = [] end.

(* the update of Closest in DHTFindNode, DHTGet and DHTPut; l' is l with x added at either end *)
Lemma nearest_opt_add key c l x l' :
  (forall v, In v l' <-> x = v \/ In v l) -> nearest_opt key c l ->
  nearest_opt key (match c with
                   | None => Some x
                   | Some c0 => if distance_lt key x c0 then Some x else Some c0
                   end) l'.
Proof.
  intros Hl' H. destruct c as [c|]; cbn [nearest_opt] in *.
  - destruct H as [Hin Hmin]. destruct (distance_lt key x c) eqn:E; split.
    + apply Hl'. now left.
    + intros v Hv. apply Hl' in Hv as [<-|Hv]; [apply dlt_irrefl|].
      (* v < x < c would contradict the minimality of c *)
      destruct (distance_lt key v x) eqn:E2; [|reflexivity].
      rewrite <- (Hmin v Hv). symmetry. now apply dlt_trans with x.
    + apply Hl'. now right.
    + intros v Hv. apply Hl' in Hv as [<-|Hv]; [exact E|now apply Hmin].
  - subst l. split; [apply Hl'; now left|].
    intros v Hv. apply Hl' in Hv as [<-|[]]. apply dlt_irrefl.
Qed.

Definition asked (log : asklog) : list bytes := map (fun p => n_id (fst p)) log.
Definition genuine (resp : responder) (log : asklog) : Prop :=
  forall i nd a, nth_error log i = Some (nd, a) -> a = resp (N.of_nat i) nd.

Definition responders (log : asklog) : list bytes := asked (filter (fun p => a_ok (snd p)) log).
Definition accepters (log : asklog) : list bytes := asked (filter (fun p => a_ok (snd p) && a_accept (snd p)) log).

Lemma asked_snoc log nd a : asked (log ++ [(nd, a)]) = asked log ++ [n_id nd].
Proof. unfold asked. now rewrite map_app. Qed.

Lemma asked_filter_snoc f log nd a :
  asked (filter f (log ++ [(nd, a)])) = asked (filter f log) ++ (if f (nd, a) then [n_id nd] else []).
Proof. rewrite filter_snoc. unfold asked. rewrite map_app. now destruct (f (nd, a)). Qed.

Lemma responders_snoc log nd a :
  responders (log ++ [(nd, a)]) = responders log ++ (if a_ok a then [n_id nd] else []).
Proof. apply asked_filter_snoc. Qed.

Lemma accepters_snoc log nd a :
  accepters (log ++ [(nd, a)]) = accepters log ++ (if a_ok a && a_accept a then [n_id nd] else []).
Proof. apply asked_filter_snoc. Qed.

Lemma accepters_nodup log : NoDup (asked log) -> NoDup (accepters log).
Proof. apply NoDup_map_filter. Qed.

(* what holds of the log of any callback that asks at most once per call, and
   only the node it was handed: each entry is a real call in call order, no id
   is asked twice, only visited ids are asked *)
Definition log_ok (resp : responder) (log : asklog) (visited : list bytes) : Prop :=
  genuine resp log /\ NoDup (asked log) /\ incl (asked log) visited.

Lemma log_ok_init resp : log_ok resp [] [].
Proof. split; [intros [|i] nd a [=]|]. split; [constructor|intros x []]. Qed.

Lemma log_ok_skip resp log visited x : log_ok resp log visited -> log_ok resp log (x :: visited).
Proof. intros (Hg & Hnd & Hsub). split; [assumption|]. split; [assumption|]. now apply incl_tl. Qed.

Lemma log_ok_ask resp log visited nd :
  log_ok resp log visited -> ~ In (n_id nd) visited ->
  log_ok resp (log ++ [(nd, resp (lenN log) nd)]) (n_id nd :: visited).
Proof.
  intros (Hg & Hnd & Hsub) Hv. split; [|rewrite asked_snoc; split].
  - intros i nd' a' Hn. destruct (Nat.lt_ge_cases i (length log)) as [Hlt|Hge].
    + rewrite nth_error_app1 in Hn by assumption. now apply Hg.
    + rewrite nth_error_app2 in Hn by assumption.
      destruct (i - length log)%nat as [|j] eqn:Ei; cbn [nth_error] in Hn; [|destruct j; discriminate].
      injection Hn as <- <-. f_equal. rewrite lenN_spec. lia.
  - apply NoDup_snoc; [assumption|]. intros Hin. now apply Hv, Hsub.
  - intros x Hx. apply in_snoc in Hx as [<-|Hx]; [now left|right; now apply Hsub].
Qed.

(* every id a responder ever names lies in U *)
Definition resp_in (U : list bytes) (resp : responder) : Prop :=
  forall i nd x, In x (a_nodes (resp i nd)) -> In (n_id x) U.

(* The shape the four callbacks share, lg being the log field of the state: a
   call either leaves the log alone and stops the iteration, or asks the node it
   was handed, once, and hands back only peers named in that answer. *)
Definition asks_once {S} (resp : responder) (lg : S -> asklog) (fn : S -> node -> S * option (list node)) : Prop :=
  forall st nd st' r, fn st nd = (st', r) ->
    let a := resp (lenN (lg st)) nd in
    (lg st' = lg st /\ r = None) \/
    (lg st' = lg st ++ [(nd, a)] /\ forall news, r = Some news -> incl news (a_nodes a)).

Section AsksOnce.
  Context {S : Type} (resp : responder) (lg : S -> asklog) (fn : S -> node -> S * option (list node)).
  Hypothesis Hfn : asks_once resp lg fn.

  Lemma asks_once_answers_in U : resp_in U resp -> answers_in fn U.
  Proof.
    intros HU st nd st' news Efn x Hx.
    destruct (Hfn _ _ _ _ Efn) as [[_ [=]]|[_ Hnews]].
    apply (HU (lenN (lg st)) nd), (Hnews news eq_refl), Hx.
  Qed.

  (* the log invariant, together with any invariant Q of the rest of the state *)
  Theorem asks_once_result (Q : S -> list bytes -> Prop) fuel initial key n st0 st vis :
    lg st0 = [] -> Q st0 [] ->
    (forall st nd visited st' r, Q st visited -> fn st nd = (st', r) -> Q st' (n_id nd :: visited)) ->
    dht_iterate fn fuel initial key n st0 = Some (Ok (st, vis)) ->
    log_ok resp (lg st) vis /\ Q st vis.
  Proof.
    intros H0 HQ0 HQ.
    apply (dht_iterate_inv fn (fun st v => log_ok resp (lg st) v /\ Q st v)).
    - intros st1 nd visited st' r (Hlog & HQ1) Hv Efn. split; [|eapply HQ; eauto].
      destruct (Hfn _ _ _ _ Efn) as [[-> _]|[-> _]]; [now apply log_ok_skip|now apply log_ok_ask].
    - rewrite H0. split; [apply log_ok_init|exact HQ0].
  Qed.
End AsksOnce.
