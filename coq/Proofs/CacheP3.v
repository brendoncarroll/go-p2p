(* C18: Delete and Expire; then every step keeps the invariant and refines the map
   (step_correct), and so does every history (run_inv, reachable). *)
From P2PV Require Import Lib.Base Model.Cache Proofs.BaseP Proofs.CacheP Proofs.CacheP2.
From Coq Require Import Lia ZifyBool ZifyN ZifyNat.
Open Scope Z_scope.

Lemma delete_unfold c k :
  delete c k =
    match lookup c k with
    | None => (c, None)
    | Some e =>
        let es := b_remove (b_ents (bucket_at (c_buckets c) (bidx c k))) k in
        (remove_key c k (fold_left (fun m e => upd_minexp m (e_exp e)) es 0), Some e)
    end.
Proof.
  unfold delete, remove_key. rewrite lookup_at.
  destruct (get_bucket_cases c k) as [->|[-> ->]]; [|reflexivity].
  unfold b_delete. destruct (b_find _ k); reflexivity.
Qed.

Theorem delete_correct c k c' r :
  inv c -> delete c k = (c', r) ->
  inv c' /\ r = lookup c k /\ point_update c c' k None.
Proof.
  intros Hi. apply inv_inv0 in Hi as [Hi0 Hle]. rewrite delete_unfold.
  destruct (lookup c k) as [e|] eqn:Hl; cbn zeta; intros H; injection H as <- <-.
  - pose proof (remove_key_spec c k e _ Hi0 Hl (minexp_ok_fold _)) as Hp.
    split; [|split; [reflexivity|exact Hp]].
    apply inv_inv0. split; [apply Hp|]. cbn [remove_key c_count c_max]. lia.
  - split; [now apply inv_inv0|]. split; [reflexivity|].
    pose proof (point_update_refl c k Hi0) as Hp. now rewrite Hl in Hp.
Qed.

(* the minExpiresAt shortcut is sound: a skipped bucket holds nothing expired *)
Lemma skip_sound now b : minexp_ok b -> (b_minexp b <? now) = false ->
  forall e, In e (b_ents b) -> is_expired now e = false.
Proof.
  intros [H0 H1] Hs e He. unfold is_expired.
  destruct (Z.eqb_spec (e_exp e) 0) as [Hz|Hnz]; [reflexivity|]. cbn [negb andb].
  destruct (Z.eqb_spec (b_minexp b) 0) as [Hm|Hm].
  - specialize (H0 Hm e He). contradiction.
  - specialize (H1 Hm e He Hnz). lia.
Qed.

(* Expire is b_expire on every bucket, skipped or not *)
Lemma expire_buckets_spec now bs :
  (forall b, In b bs -> minexp_ok b) ->
  expire_buckets bs now = (map (fun b => fst (b_expire b now)) bs, flat_map (fun b => snd (b_expire b now)) bs).
Proof.
  induction bs as [|b t IH]; intros H; cbn [expire_buckets map flat_map]; [reflexivity|].
  rewrite IH by (intros x Hx; apply H; now right).
  destruct (b_minexp b <? now) eqn:Es; [reflexivity|].
  pose proof (skip_sound now b (H b (or_introl eq_refl)) Es) as Hno. cbn [b_expire fst snd].
  rewrite (filter_none _ _ Hno), filter_all; [now destruct b|].
  intros x Hx. now rewrite Hno.
Qed.

Lemma lenZ_filter_split {A} (f : A -> bool) l :
  lenZ l = lenZ (filter f l) + lenZ (filter (fun x => negb (f x)) l).
Proof.
  induction l as [|h t IH]; cbn [filter]; [reflexivity|].
  destruct (f h); cbn [negb]; rewrite !lenZ_cons; lia.
Qed.

Theorem expire_correct c now c' out :
  inv c -> expire c now = (c', out) ->
  inv c' /\
  out = filter (is_expired now) (contents c) /\
  contents c' = filter (fun e => negb (is_expired now e)) (contents c) /\
  (forall k', lookup c' k' = match lookup c k' with
                             | Some e => if is_expired now e then None else Some e
                             | None => None end).
Proof.
  intros Hi. pose proof Hi as (Hmn & Hmx & Hcnt & Hle & Hbs). unfold expire.
  rewrite expire_buckets_spec by (intros b Hb; apply In_nth_error in Hb as (n & Hn); apply (Hbs n b Hn)).
  intros H. apply pair_equal_spec in H as [<- <-].
  (* filtering the contents is filtering every bucket *)
  assert (Hout : flat_map (fun b => snd (b_expire b now)) (c_buckets c) = filter (is_expired now) (contents c)).
  { symmetry. apply filter_flat_map. }
  assert (Hcont : flat_map b_ents (map (fun b => fst (b_expire b now)) (c_buckets c))
                  = filter (fun e => negb (is_expired now e)) (contents c)).
  { unfold contents. now rewrite filter_flat_map, !flat_map_concat_map, map_map. }
  split; [|split; [|split]].
  - unfold inv, contents. cbn [c_minpb c_max c_count c_buckets c_locus].
    split; [assumption|]. split; [assumption|].
    rewrite Hcont, Hout.
    pose proof (lenZ_filter_split (is_expired now) (contents c)) as Hs.
    pose proof (lenZ_nonneg (filter (is_expired now) (contents c))).
    split; [lia|]. split; [lia|].
    apply buckets_ok_at. intros n. rewrite bucket_at_map by reflexivity.
    pose proof (bucket_at_ok _ _ n Hbs) as Hok.
    apply bucket_ok_filter; [exact Hok|]. apply minexp_ok_filter, Hok.
  - exact Hout.
  - exact Hcont.
  - intros k'. rewrite !lookup_at. unfold bidx. cbn [c_locus c_buckets].
    rewrite bucket_at_map by reflexivity. cbn [b_expire fst b_ents].
    rewrite filter_find by apply (bucket_at_ok _ _ _ Hbs).
    destruct (b_find _ k') as [e|]; [|reflexivity].
    destruct (is_expired now e); reflexivity.
Qed.

(* the abstract map after an operation, as a function of the map before it and
   of the operation's reported result *)
Definition spec_after (c : cache) (o : op) (r : out) (k' : bytes) : option entry :=
  match o, r with
  | OPut k v now exp, RPut ev _ => update_spec c k (put_fn k v now exp) ev k'
  | OKeep k v now exp, RPut ev _ => update_spec c k (keep_fn k v now exp) ev k'
  | ODel k, _ => if bytes_eqb k k' then None else lookup c k'
  | OExpire now, _ => match lookup c k' with
                      | Some e => if is_expired now e then None else Some e
                      | None => None end
  | _, _ => lookup c k'
  end.

Theorem step_correct c o orc :
  inv c ->
  sure (fun '(c', r) =>
    inv c' /\ (forall k', lookup c' k' = spec_after c o r k') /\
    match o, r with
    | ODel k, RDel e => e = lookup c k
    | OExpire now, RExpire es => es = filter (is_expired now) (contents c)
    | OGet k, RGet v => v = option_map e_val (lookup c k)
    | OCount, RCount n => n = lenZ (contents c)
    | (OPut _ _ _ _ | OKeep _ _ _ _), RPut _ _ => True
    | _, _ => False
    end)
  (step c o orc).
Proof.
  intros Hi. destruct o as [k v now exp|k v now exp|k|now|k|]; cbn [step].
  - apply (sure_bind _ _ _ _ (update_correct c k _ orc Hi (put_fn_key _ _ _ _ _))).
    intros [c1 [ev added]] (A & C & _). cbn [sure]. auto.
  - apply (sure_bind _ _ _ _ (update_correct c k _ orc Hi (keep_fn_key _ _ _ _ _))).
    intros [c1 [ev added]] (A & C & _). cbn [sure]. auto.
  - destruct (delete c k) as [c1 e] eqn:E. cbn [sure].
    destruct (delete_correct c k c1 e Hi E) as (A & B & _ & _ & _ & D). auto.
  - destruct (expire c now) as [c1 es] eqn:E. cbn [sure].
    destruct (expire_correct c now c1 es Hi E) as (A & C & _ & D). auto.
  - cbn [sure]. auto.
  - cbn [sure]. split; [exact Hi|]. split; [reflexivity|]. now apply inv_count.
Qed.

Lemma run_app ops1 ops2 : forall c, run c (ops1 ++ ops2) = (do c' <- run c ops1; run c' ops2).
Proof.
  induction ops1 as [|[o orc] t IH]; intros c; cbn [run app bind]; [reflexivity|].
  destruct (step c o orc) as [[c1 r]| |]; cbn [bind]; [apply IH|reflexivity|reflexivity].
Qed.

Lemma run_inv ops : forall c, inv c -> sure inv (run c ops).
Proof.
  induction ops as [|[o orc] t IH]; intros c Hi; cbn [run]; [exact Hi|].
  apply (sure_bind _ _ _ _ (step_correct c o orc Hi)). intros [c1 r] (Hi1 & _). now apply IH.
Qed.

Definition reachable (L : bytes) (mx mn : Z) (c : cache) : Prop :=
  exists c0 ops, new_cache L mx mn = Ok c0 /\ run c0 ops = Ok c.

Lemma reachable_inv L mx mn c : reachable L mx mn c -> inv c.
Proof.
  intros (c0 & ops & H0 & Hr). apply new_cache_inv in H0.
  exact (sure_ok _ _ _ (run_inv ops c0 H0) Hr).
Qed.

Lemma reachable_step L mx mn c o orc c' r :
  reachable L mx mn c -> step c o orc = Ok (c', r) -> reachable L mx mn c'.
Proof.
  intros (c0 & ops & H0 & Hrun) Hs. exists c0, (ops ++ [(o, orc)]). split; [exact H0|].
  rewrite run_app, Hrun. cbn [bind run]. now rewrite Hs.
Qed.
