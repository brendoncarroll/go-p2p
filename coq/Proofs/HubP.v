(* C12 / C13 (and the hub parts of C11 and C14) over every accepted event list of the hub
   transition system: any number of concurrent receivers and deliverers, any
   interleaving with cancellations and Close.

   The hub is looked at one call at a time.  Whatever else a step does, it moves
   a given Deliver call, and a given Receive call, along at most one edge of that
   call's own life cycle (dtrans, rtrans); the theorems are facts about paths in
   these two small diagrams. *)
From P2PV Require Import Lib.Base Model.Hub.
From Coq Require Import Lia.
Close Scope N_scope.
Open Scope nat_scope.

Lemma upd_same {A} (f : nat -> A) i v : upd f i v i = v.
Proof. unfold upd. now rewrite Nat.eqb_refl. Qed.
Lemma upd_other {A} (f : nat -> A) i j v : i <> j -> upd f i v j = f j.
Proof. unfold upd. intros H. destruct (Nat.eqb_spec i j); [contradiction|reflexivity]. Qed.

Ltac upd_cases i j := destruct (Nat.eq_dec i j) as [->|?]; [rewrite ?upd_same|rewrite ?upd_other by assumption].

(* is e the handing over of deliverer call d / to receiver call r; count sums over a history *)
Definition is_meet_d (d : nat) (e : hev) : nat := match e with HMeet _ d' => if Nat.eqb d d' then 1 else 0 | _ => 0 end.
Definition is_meet_r (r : nat) (e : hev) : nat := match e with HMeet r' _ => if Nat.eqb r r' then 1 else 0 | _ => 0 end.
Fixpoint count (f : hev -> nat) (evs : list hev) : nat := match evs with [] => 0 | e :: t => f e + count f t end.

Lemma hrun_app h a b : hrun h (a ++ b) = match hrun h a with Some h' => hrun h' b | None => None end.
Proof. revert h; induction a as [|e t IH]; intros h; [reflexivity|]. cbn [hrun app]. destruct (hstep h e); auto. Qed.

Lemma hrun_split h a b h' : hrun h (a ++ b) = Some h' -> exists h1, hrun h a = Some h1 /\ hrun h1 b = Some h'.
Proof. rewrite hrun_app. destruct (hrun h a) as [h1|]; [eauto|discriminate]. Qed.

Lemma hrun_ind (P : hub -> list hev -> hub -> Prop) :
  (forall h, P h [] h) ->
  (forall h e h1 t h', hstep h e = Some h1 -> P h1 t h' -> P h (e :: t) h') ->
  forall evs h h', hrun h evs = Some h' -> P h evs h'.
Proof.
  intros Hnil Hcons. induction evs as [|e t IH]; intros h h' H; cbn [hrun] in H.
  - injection H as <-. apply Hnil.
  - destruct (hstep h e) as [h1|] eqn:E; [|discriminate]. exact (Hcons h e h1 t h' E (IH h1 h' H)).
Qed.

Lemma hrun_count (pot : hub -> nat) (w : hev -> nat) :
  (forall h e h', hstep h e = Some h' -> pot h' = pot h + w e) ->
  forall evs h h', hrun h evs = Some h' -> pot h' = pot h + count w evs.
Proof.
  intros Hs. apply hrun_ind; cbn [count].
  - intros h. lia.
  - intros h e h1 t h' E IH. rewrite IH, (Hs h e h1 E). lia.
Qed.

(* the call an event names.  HCbEnd r names the receiver only, though it also moves
   the deliverer r is serving: for that event a deliverer may stay or take DEnd *)
Definition ev_d (e : hev) : option nat :=
  match e with HDlvCall d | HMeet _ d | HDlvRetOk d | HDlvRetErr d _ => Some d | _ => None end.
Definition ev_r (e : hev) : option nat :=
  match e with HRecvCall r | HRecvRetErr r _ | HMeet r _ | HCbEnd r => Some r | _ => None end.

Inductive dtrans (d : nat) : hev -> dstate -> dstate -> Prop :=
| DStay e s : ev_d e <> Some d -> dtrans d e s s
| DCallOpen : dtrans d (HDlvCall d) DIdle DOffer
| DCallDead : dtrans d (HDlvCall d) DIdle DDead
| DMeet r : dtrans d (HMeet r d) DOffer (DCommit r)
| DEnd r : dtrans d (HCbEnd r) (DCommit r) (DDone r)
| DOk r : dtrans d (HDlvRetOk d) (DDone r) (DRet true (Some r))
| DErrOffer ce : dtrans d (HDlvRetErr d ce) DOffer (DRet false None)
| DErrDead : dtrans d (HDlvRetErr d true) DDead (DRet false None).

Inductive rtrans (r : nat) : hev -> rstate -> rstate -> Prop :=
| RStay e s : ev_r e <> Some r -> rtrans r e s s
| RCallOpen : rtrans r (HRecvCall r) RIdle RWait
| RCallDead : rtrans r (HRecvCall r) RIdle RDead
| RMeet d : rtrans r (HMeet r d) RWait (RCb d)
| REnd d : rtrans r (HCbEnd r) (RCb d) (RRet true (Some d))
| RErrWait ce : rtrans r (HRecvRetErr r ce) RWait (RRet false None)
| RErrDead : rtrans r (HRecvRetErr r true) RDead (RRet false None).

(* The case analysis of hstep over all events is done here only; elsewhere hstep is
   evaluated at one given event.  The bullets follow hev's constructors in order.  Each
   opens the states the event tests, once, and then gives the deliverers' side and the
   receivers' side in that order: a call the event does not name stays, for the one it
   moves `constructor` picks the one edge whose event and source state match. *)
Lemma hstep_trans h e h' : hstep h e = Some h' ->
  (forall d, dtrans d e (h_d h d) (h_d h' d)) /\ (forall r, rtrans r e (h_r h r) (h_r h' r)).
Proof.
  destruct e as [r0|r0 ce|r0 d0|r0|d0|d0|d0 ce|r0|d0| |]; cbn [hstep]; intros H.
  - destruct (h_r h r0) eqn:Er; inversion H; subst. cbn [h_r h_d set_r]. split; intros x.
    + now apply DStay.
    + upd_cases r0 x; [rewrite Er; destruct (is_closed h); constructor|apply RStay; cbn; congruence].
  - destruct (h_r h r0) eqn:Er; try discriminate; [destruct (if ce then _ else _)|destruct ce]; inversion H; subst.
    all: cbn [h_r h_d set_r]; split; intros x; [now apply DStay|].
    all: upd_cases r0 x; [rewrite Er; constructor|apply RStay; cbn; congruence].
  - destruct (h_r h r0) eqn:Er; try discriminate. destruct (h_d h d0) eqn:Ed; try discriminate. inversion H; subst.
    cbn [h_r h_d set_d set_r]. split; intros x.
    + upd_cases d0 x; [rewrite Ed; constructor|apply DStay; cbn; congruence].
    + upd_cases r0 x; [rewrite Er; constructor|apply RStay; cbn; congruence].
  - destruct (h_r h r0) as [| | |d0|] eqn:Er; try discriminate. destruct (h_d h d0) as [| | |r'|r'|] eqn:Ed; try discriminate.
    destruct (Nat.eqb_spec r0 r') as [<-|]; inversion H; subst. cbn [h_r h_d set_d set_r]. split; intros x.
    + upd_cases d0 x; [rewrite Ed; constructor|now apply DStay].
    + upd_cases r0 x; [rewrite Er; constructor|apply RStay; cbn; congruence].
  - destruct (h_d h d0) eqn:Ed; inversion H; subst. cbn [h_r h_d set_d]. split; intros x.
    + upd_cases d0 x; [rewrite Ed; destruct (is_closed h); constructor|apply DStay; cbn; congruence].
    + now apply RStay.
  - destruct (h_d h d0) eqn:Ed; inversion H; subst. cbn [h_r h_d set_d]. split; intros x.
    + upd_cases d0 x; [rewrite Ed; constructor|apply DStay; cbn; congruence].
    + now apply RStay.
  - destruct (h_d h d0) eqn:Ed; try discriminate; [destruct (if ce then _ else _)|destruct ce]; inversion H; subst.
    all: cbn [h_r h_d set_d]; split; intros x; [|now apply RStay].
    all: upd_cases d0 x; [rewrite Ed; constructor|apply DStay; cbn; congruence].
  - inversion H; subst. split; intros x; [now apply DStay|now apply RStay].
  - inversion H; subst. split; intros x; [now apply DStay|now apply RStay].
  - inversion H; subst. destruct (h_phase h); (split; intros x; [now apply DStay|now apply RStay]).
  - destruct (h_phase h); inversion H; subst; (split; intros x; [now apply DStay|now apply RStay]).
Qed.

Lemma hstep_d h e h' d : hstep h e = Some h' -> dtrans d e (h_d h d) (h_d h' d).
Proof. intros H. apply (hstep_trans h e h' H). Qed.
Lemma hstep_r h e h' r : hstep h e = Some h' -> rtrans r e (h_r h r) (h_r h' r).
Proof. intros H. apply (hstep_trans h e h' H). Qed.

(* has deliverer call d / receiver call r been handed over: a returned call records whom it met *)
Definition met_d (s : dstate) : nat :=
  match s with DCommit _ | DDone _ | DRet _ (Some _) => 1 | _ => 0 end.
Definition met_r (s : rstate) : nat :=
  match s with RCb _ | RRet _ (Some _) => 1 | _ => 0 end.

Lemma is_meet_d_unnamed d e : ev_d e <> Some d -> is_meet_d d e = 0.
Proof. destruct e; try reflexivity. cbn. destruct (Nat.eqb_spec d d0); congruence. Qed.
Lemma is_meet_r_unnamed r e : ev_r e <> Some r -> is_meet_r r e = 0.
Proof. destruct e; try reflexivity. cbn. destruct (Nat.eqb_spec r r0); congruence. Qed.

Lemma dtrans_met d e s s' : dtrans d e s s' -> met_d s' = met_d s + is_meet_d d e.
Proof.
  destruct 1 as [e s N| | | | | | |]; [rewrite (is_meet_d_unnamed d e N); lia|..].
  all: cbn; rewrite ?Nat.eqb_refl; reflexivity.
Qed.
Lemma rtrans_met r e s s' : rtrans r e s s' -> met_r s' = met_r s + is_meet_r r e.
Proof.
  destruct 1 as [e s N| | | | | |]; [rewrite (is_meet_r_unnamed r e N); lia|..].
  all: cbn; rewrite ?Nat.eqb_refl; reflexivity.
Qed.

Lemma run_met_d d evs h h' : hrun h evs = Some h' -> met_d (h_d h' d) = met_d (h_d h d) + count (is_meet_d d) evs.
Proof. apply (hrun_count (fun h => met_d (h_d h d))). intros h0 e h1 E. apply dtrans_met, hstep_d, E. Qed.
Lemma run_met_r r evs h h' : hrun h evs = Some h' -> met_r (h_r h' r) = met_r (h_r h r) + count (is_meet_r r) evs.
Proof. apply (hrun_count (fun h => met_r (h_r h r))). intros h0 e h1 E. apply rtrans_met, hstep_r, E. Qed.

Lemma met_d_le s : met_d s <= 1. Proof. destruct s as [| | | | |? [|]]; cbn; lia. Qed.
Lemma met_r_le s : met_r s <= 1. Proof. destruct s as [| | | |? [|]]; cbn; lia. Qed.

(* C13: a message is handed to at most one receiver callback, and a Receive call gets at most one message *)
Theorem at_most_one_meet evs h : hrun hub0 evs = Some h ->
  (forall d, count (is_meet_d d) evs <= 1) /\ (forall r, count (is_meet_r r) evs <= 1).
Proof.
  intros H. split; intros x.
  - pose proof (run_met_d x evs hub0 h H) as E. pose proof (met_d_le (h_d h x)). cbn in E. lia.
  - pose proof (run_met_r x evs hub0 h H) as E. pose proof (met_r_le (h_r h x)). cbn in E. lia.
Qed.

Lemma dret_stable d ok m : forall evs h h', hrun h evs = Some h' -> h_d h d = DRet ok m -> h_d h' d = DRet ok m.
Proof.
  refine (hrun_ind _ _ _); [auto|]. intros h e h1 t h' E IH Hd. apply IH.
  pose proof (hstep_d h e h1 d E) as T. rewrite Hd in T. now inversion T.
Qed.

(* C13: Deliver returns an error only if no callback ever saw the message (before or after) *)
Theorem err_never_met pre post d ce h : hrun hub0 (pre ++ HDlvRetErr d ce :: post) = Some h ->
  count (is_meet_d d) (pre ++ HDlvRetErr d ce :: post) = 0.
Proof.
  intros H. pose proof (run_met_d d _ _ _ H) as M. cbn [hub0 h_d met_d plus] in M. rewrite <- M.
  destruct (hrun_split _ _ _ _ H) as (h1 & _ & H1). cbn [hrun] in H1.
  destruct (hstep h1 (HDlvRetErr d ce)) as [h2|] eqn:E2; [|discriminate].
  rewrite (dret_stable d false None post h2 h H1); [reflexivity|].
  (* the event names d, so d did not stay where it was *)
  pose proof (hstep_d _ _ _ d E2) as T. inversion T; [cbn in *; congruence|reflexivity..].
Qed.

(* ok_after_callback as its induction needs it, from any start state: a deliverer found in
   DDone r was there at the start, or r's callback has ended since and d was committed
   to r at the start or has met r since *)
Lemma done_history d r : forall evs h h', hrun h evs = Some h' -> h_d h' d = DDone r ->
  h_d h d = DDone r \/
  (In (HCbEnd r) evs /\ (h_d h d = DCommit r \/ In (HMeet r d) evs)).
Proof.
  refine (hrun_ind _ _ _); [now left|]. intros h e h1 t h' E IH Hd. cbn [In].
  pose proof (hstep_d h e h1 d E) as T.
  destruct (IH Hd) as [D1|(C1 & [M1|M1])].
  - (* DDone r after e: d stayed there, or e = HCbEnd r brought it from DCommit r (DEnd) *)
    rewrite D1 in T. inversion T; subst; tauto.
  - (* DCommit r after e: d stayed there, or e = HMeet r d brought it from DOffer (DMeet) *)
    rewrite M1 in T. inversion T; subst; tauto.
  - tauto.
Qed.

(* C13: Deliver returns success only after the chosen callback has finished *)
Theorem ok_after_callback pre d h : hrun hub0 (pre ++ [HDlvRetOk d]) = Some h ->
  exists r, In (HMeet r d) pre /\ In (HCbEnd r) pre.
Proof.
  intros H. destruct (hrun_split _ _ _ _ H) as (h1 & E1 & H1). cbn [hrun hstep] in H1.
  destruct (h_d h1 d) as [| | | |r|] eqn:Ed; try discriminate. exists r.
  destruct (done_history d r pre hub0 h1 E1 Ed) as [X|(C & [X|M])]; try (cbn in X; discriminate). auto.
Qed.

(* C14: a deliverer committed to r's callback can only wait for it to end *)
Lemma committed_waits d r e s' : dtrans d e (DCommit r) s' -> s' = DCommit r \/ (e = HCbEnd r /\ s' = DDone r).
Proof. inversion 1; auto. Qed.

Definition r_dead (s : rstate) : Prop := s = RDead \/ s = RRet false None.

Lemma dead_r_stays r : forall evs h h', hrun h evs = Some h' -> r_dead (h_r h r) -> r_dead (h_r h' r).
Proof.
  refine (hrun_ind _ _ _); [auto|]. intros h e h1 t h' E IH Hr. apply IH.
  pose proof (hstep_r h e h1 r E) as T. unfold r_dead in *.
  destruct Hr as [Hr|Hr]; rewrite Hr in T; inversion T; auto.
Qed.

(* C12: a Receive call made after Close has returned is never handed a message, in any continuation, and if it
   returns it returns an error; from any hub state, reachable or not, in which Close has returned *)
Lemma closed_call_never_served h1 r post h : h_phase h1 = Closed ->
  hrun h1 (HRecvCall r :: post) = Some h ->
  count (is_meet_r r) post = 0 /\ (forall ok m, h_r h r = RRet ok m -> ok = false).
Proof.
  intros Hc. cbn [hrun hstep]. destruct (h_r h1 r) eqn:Er; try discriminate.
  unfold is_closed. rewrite Hc. intros E3.
  assert (D : r_dead (h_r (set_r h1 r RDead) r)) by (left; apply upd_same).
  apply (dead_r_stays r post _ h E3) in D.
  pose proof (run_met_r r post _ h E3) as M. cbn [h_r set_r] in M. rewrite upd_same in M.
  destruct D as [D|D]; rewrite D in M |- *; cbn in M.
  - split; [lia|discriminate].
  - split; [lia|]. now intros ok m [= <- _].
Qed.

Theorem call_after_close_never_served pre r post h h1 :
  hrun hub0 pre = Some h1 -> h_phase h1 = Closed ->
  hrun hub0 (pre ++ HRecvCall r :: post) = Some h ->
  count (is_meet_r r) post = 0 /\ (forall ok m, h_r h r = RRet ok m -> ok = false).
Proof. intros E1 Hc. rewrite hrun_app, E1. now apply closed_call_never_served. Qed.

(* C12 / C13 progress: whoever is parked when the hub closes, or when its context is cancelled, can return *)
Theorem close_releases_parked h r d : closing h = true ->
  (h_r h r = RWait -> hstep h (HRecvRetErr r true) <> None) /\
  (h_d h d = DOffer -> hstep h (HDlvRetErr d true) <> None).
Proof. intros C. cbn [hstep]. split; intros ->; rewrite C; discriminate. Qed.

Theorem cancel_releases_parked h r d :
  (h_r h r = RWait -> h_rc h r = true -> hstep h (HRecvRetErr r false) <> None) /\
  (h_d h d = DOffer -> h_dc h d = true -> hstep h (HDlvRetErr d false) <> None).
Proof. cbn [hstep]. split; intros -> ->; discriminate. Qed.

(* a Receive call returns the close error only if Close was called (or the call was made after Close had
   returned), and the context's error only if its context was cancelled *)
Theorem no_spurious_errors h r ce h' : hstep h (HRecvRetErr r ce) = Some h' ->
  if ce then closing h = true \/ h_r h r = RDead else h_rc h r = true.
Proof.
  cbn [hstep]. destruct (h_r h r); try discriminate; destruct ce; try discriminate; intros H.
  - left. destruct (closing h); [reflexivity|discriminate].
  - destruct (h_rc h r); [reflexivity|discriminate].
  - now right.
Qed.
