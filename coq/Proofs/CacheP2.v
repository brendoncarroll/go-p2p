(* C18: Cache.Update.  Insertion and removal of one key are point updates
   of the lookup function that keep the invariant; eviction removes the newest
   entry of the farthest unprotected bucket. *)
From P2PV Require Import Lib.Base Model.Cache Proofs.BaseP Proofs.CacheP.
From Coq Require Import Lia ZifyBool ZifyN ZifyNat.
Open Scope Z_scope.

Definition point_update (c c' : cache) (k : bytes) (x : option entry) : Prop :=
  inv0 c' /\ c_max c' = c_max c /\
  c_count c' = c_count c - occ (lookup c k) + occ x /\
  forall k', lookup c' k' = if bytes_eqb k k' then x else lookup c k'.

(* A point update of k's bucket b is a point update of the cache: other keys of
   the bucket are told apart by the bucket, keys of other buckets by their index.
   The new count cnt comes with an equation because each operation writes it in
   its own way. *)
Lemma put_bucket_point c k b' x cnt :
  let b := bucket_at (c_buckets c) (bidx c k) in
  inv0 c -> bucket_ok (c_locus c) (bidx c k) b' ->
  (forall k', b_find (b_ents b') k' = if bytes_eqb k k' then x else b_find (b_ents b) k') ->
  lenZ (b_ents b') = lenZ (b_ents b) - occ (lookup c k) + occ x ->
  cnt = c_count c - occ (lookup c k) + occ x ->
  point_update c (mkC (c_locus c) (c_minpb c) (c_max c) cnt (put_bucket (c_buckets c) (bidx c k) b')) k x.
Proof.
  intros b (Hmn & Hmx & Hcnt & Hbs) Hok Hfind Hlen ->. split; [|split; [|split]].
  - unfold inv0, contents. cbn [c_minpb c_max c_count c_buckets c_locus].
    split; [assumption|]. split; [assumption|]. split.
    + rewrite len_contents_put. fold (contents c). fold b. lia.
    + now apply buckets_ok_put.
  - reflexivity.
  - reflexivity.
  - intros k'. rewrite (lookup_at _ k'). cbn [c_buckets]. change (bidx (mkC _ _ _ _ _) k') with (bidx c k').
    rewrite bucket_at_put. destruct (Nat.eqb_spec (bidx c k') (bidx c k)) as [He|Hne].
    + rewrite Hfind. unfold b. rewrite <- He, <- lookup_at. reflexivity.
    + destruct (bytes_eqb_spec k k') as [->|_]; [congruence|]. symmetry. apply lookup_at.
Qed.

(* the insertion phase of Cache.Update *)
Definition insert (c : cache) (k : bytes) (fn : option entry -> entry) : cache :=
  mkC (c_locus c) (c_minpb c) (c_max c)
      (match lookup c k with None => c_count c + 1 | Some _ => c_count c end)
      (put_bucket (c_buckets c) (bidx c k) (b_put (bucket_at (c_buckets c) (bidx c k)) (fn (lookup c k)))).

Lemma update_unfold c k fn orc :
  update c k fn orc =
    if c_max c =? 0 then Ok (c, (None, false))
    else let c1 := insert c k fn in
         if c_max c1 <? c_count c1 then
           do (c2, ev) <- evict c1 orc; Ok (c2, (Some ev, negb (bytes_eqb k (e_key ev))))
         else Ok (c1, (None, match lookup c k with None => true | Some _ => false end)).
Proof.
  unfold update, insert. destruct (c_max c =? 0); [reflexivity|].
  rewrite nth_error_extend, (lookup_at c k). unfold b_update, put_bucket, b_put. cbn zeta.
  destruct (b_find _ k); reflexivity.
Qed.

Lemma point_update_refl c k : inv0 c -> point_update c c k (lookup c k).
Proof.
  intros Hi. split; [exact Hi|]. split; [reflexivity|]. split; [lia|].
  intros k'. destruct (bytes_eqb_spec k k') as [<-|_]; reflexivity.
Qed.

Lemma insert_spec c k fn :
  inv0 c -> e_key (fn (lookup c k)) = k ->
  point_update c (insert c k fn) k (Some (fn (lookup c k))).
Proof.
  intros Hi Hk. apply put_bucket_point; [assumption| | | |].
  - apply b_put_ok; [apply bucket_at_ok, Hi|]. now rewrite Hk.
  - intros k'. cbn [b_put b_ents]. now rewrite b_replace_find, Hk.
  - cbn [b_put b_ents]. rewrite b_replace_len, Hk, <- lookup_at. reflexivity.
  - destruct (lookup c k); cbn [occ]; lia.
Qed.

(* Removal of a stored key; m is the bucket's new minExpiresAt: recomputed by
   Delete, left alone by evict.  Written with set_nth, as delete and evict write
   it: put_bucket_set makes it a put_bucket once the bucket is known to lie
   inside the list, which it does since it holds an entry. *)
Definition remove_key (c : cache) (k : bytes) (m : Z) : cache :=
  mkC (c_locus c) (c_minpb c) (c_max c) (c_count c - 1)
      (set_nth (c_buckets c) (bidx c k) (mkB (b_remove (b_ents (bucket_at (c_buckets c) (bidx c k))) k) m)).

Lemma remove_key_spec c k e m :
  inv0 c -> lookup c k = Some e ->
  minexp_ok (mkB (b_remove (b_ents (bucket_at (c_buckets c) (bidx c k))) k) m) ->
  point_update c (remove_key c k m) k None.
Proof.
  intros Hi Hl Hm. unfold remove_key.
  assert (Hok : bucket_ok (c_locus c) (bidx c k) (bucket_at (c_buckets c) (bidx c k)))
    by apply bucket_at_ok, Hi.
  assert (Hlt : (bidx c k < length (c_buckets c))%nat).
  { (* the bucket holds e, so it is not one beyond the end *)
    destruct (Nat.lt_ge_cases (bidx c k) (length (c_buckets c))) as [|Hge]; [assumption|].
    rewrite lookup_at, bucket_at_beyond in Hl by exact Hge. discriminate. }
  rewrite put_bucket_set by exact Hlt.
  apply put_bucket_point; [assumption| | | |]; cbn [b_ents].
  - rewrite (b_remove_filter _ _ (proj1 Hok)) in Hm |- *. now apply bucket_ok_filter.
  - intros k'. now apply b_remove_find, Hok.
  - rewrite b_remove_len, <- lookup_at. cbn [occ]. lia.
  - rewrite Hl. cbn [occ]. lia.
Qed.

(* i is the index that the head of bs has in the whole bucket list: the offset
   the recursion carries *)
Lemma first_over_spec bs mn : forall i,
  (exists j b, first_over bs mn i = Some (i + j)%nat /\ nth_error bs j = Some b /\ mn < lenZ (b_ents b) /\
               forall j' b', (j' < j)%nat -> nth_error bs j' = Some b' -> lenZ (b_ents b') <= mn) \/
  (first_over bs mn i = None /\ forall j b, nth_error bs j = Some b -> lenZ (b_ents b) <= mn).
Proof.
  induction bs as [|h t IH]; intros i; cbn [first_over].
  - right. split; [reflexivity|]. intros [|j] b Hj; discriminate.
  - destruct (Z.ltb_spec mn (lenZ (b_ents h))) as [Hlt|Hge].
    + left. exists O, h. rewrite Nat.add_0_r. split; [reflexivity|]. split; [reflexivity|].
      split; [assumption|]. intros j' b' Hj; lia.
    + destruct (IH (S i)) as [(j & b & -> & Hn & Hl & Hall)|[-> Hall]].
      * left. exists (S j), b. rewrite Nat.add_succ_r. split; [reflexivity|]. split; [exact Hn|].
        split; [assumption|]. intros [|j'] b' Hj Hn'; cbn [nth_error] in Hn'.
        -- injection Hn' as <-. lia.
        -- apply (Hall j' b'); [lia|assumption].
      * right. split; [reflexivity|].
        intros [|j] b Hj; cbn [nth_error] in Hj; [injection Hj as <-; lia|]. now apply (Hall j).
Qed.

Lemma contents_empty_if_all_empty bs :
  (forall j b, nth_error bs j = Some b -> lenZ (b_ents b) <= 0) -> flat_map b_ents bs = [].
Proof.
  induction bs as [|h t IH]; intros H; cbn [flat_map]; [reflexivity|].
  rewrite IH by (intros j b Hj; apply (H (S j) b Hj)).
  specialize (H O h eq_refl). destruct (b_ents h); [reflexivity|]. rewrite lenZ_cons in H.
  pose proof (lenZ_nonneg l). lia.
Qed.

(* evict looks for the first bucket above its minimum, then for the first non-empty one *)
Lemma evict_index_spec c : inv0 c -> 0 < c_count c ->
  exists n b, evict_index c = Some n /\ nth_error (c_buckets c) n = Some b /\ b_ents b <> [] /\
    forall m b', (m < n)%nat -> nth_error (c_buckets c) m = Some b' -> lenZ (b_ents b') <= c_minpb c.
Proof.
  intros (Hmn & Hmx & Hcnt & Hbs) Hpos. unfold evict_index.
  destruct (first_over_spec (c_buckets c) (c_minpb c) 0) as [(j & b & -> & Hn & Hl & Hall)|[-> Hmin]].
  - exists j, b. cbn [Nat.add].
    repeat split; auto. intros Hnil. rewrite Hnil in Hl. cbn in Hl. lia.
  - destruct (first_over_spec (c_buckets c) 0 0) as [(j & b & -> & Hn & Hl & _)|[-> H0]].
    + exists j, b. cbn [Nat.add].
      repeat split; auto.
      * intros Hnil. rewrite Hnil in Hl. cbn in Hl. lia.
      * intros m b' _ Hm. now apply (Hmin m).
    + exfalso. unfold contents in Hcnt. rewrite (contents_empty_if_all_empty _ H0) in Hcnt. cbn in Hcnt. lia.
Qed.

Lemma max_created_ge es : forall e, In e es -> e_created e <= max_created es.
Proof.
  destruct es as [|h t]; [contradiction|]. cbn [max_created].
  assert (G : forall l m, m <= fold_left (fun m e => Z.max m (e_created e)) l m /\
                          forall e, In e l -> e_created e <= fold_left (fun m e => Z.max m (e_created e)) l m).
  { induction l as [|x l IH]; intros m; cbn [fold_left]; [split; [lia|contradiction]|].
    destruct (IH (Z.max m (e_created x))) as [A B]. split; [lia|].
    intros e [<-|He]; [lia|now apply B]. }
  destruct (G t (e_created h)) as [A B]. intros e [<-|He]; [exact A|now apply B].
Qed.

Lemma evict_spec c victim :
  inv0 c -> 0 < c_count c ->
  sure (fun '(c2, ev) =>
    point_update c c2 victim None /\ lookup c victim = Some ev /\
    (* no farther bucket is above its minimum ... *)
    (forall m b', (m < bidx c victim)%nat -> nth_error (c_buckets c2) m = Some b' ->
                  lenZ (b_ents b') <= c_minpb c) /\
    (* ... and the newest entry of that bucket *)
    (forall e, In e (contents c) -> bidx c (e_key e) = bidx c victim -> e_created e <= e_created ev))
  (evict c victim).
Proof.
  intros Hinv Hpos. pose proof Hinv as (_ & _ & _ & Hbs).
  destruct (evict_index_spec c Hinv Hpos) as (n & b & Hei & Hn & Hne & Hfar).
  unfold evict. rewrite Hei, Hn. unfold b_evict.
  (* past b_evict's test for an empty bucket, with b_ents b kept folded *)
  destruct (b_ents b) as [|e0 es0] eqn:Hents; [contradiction|]. rewrite <- Hents in *.
  destruct (Hbs n b Hn) as (Hnd & Hidx & Hme).
  (* an oracle that names a key not in the bucket, or not its newest entry, makes evict fail: sure asks nothing then *)
  destruct (b_find (b_ents b) victim) as [ev|] eqn:Hf; cbn [bind sure]; [|exact I].
  destruct (Z.eqb_spec (e_created ev) (max_created (b_ents b))) as [Hmaxc|Hmaxc]; cbn [bind sure]; [|exact I].
  (* the oracle's victim is stored in bucket n, so n is the bucket of its key *)
  destruct (b_find_some _ _ _ Hf) as [Hin Hkey].
  assert (Hbv : n = bidx c victim) by (unfold bidx; rewrite <- Hkey; symmetry; now apply Hidx).
  subst n. pose proof (bucket_at_nth_error _ _ _ Hn) as Hb. subst b.
  assert (Hlv : lookup c victim = Some ev) by (now rewrite lookup_at).
  split; [|split; [|split]].
  - apply (remove_key_spec c victim ev _ Hinv Hlv).
    rewrite (b_remove_filter _ _ Hnd). now apply minexp_ok_filter.
  - exact Hlv.
  - intros m b' Hm Hnm. cbn [c_buckets] in Hnm. rewrite set_nth_nth in Hnm.
    destruct (Nat.eqb_spec m (bidx c victim)); [lia|]. now apply (Hfar m).
  - intros x Hx Hbx. apply (in_contents_bucket c x Hbs) in Hx. rewrite Hbx in Hx.
    rewrite Hmaxc. now apply max_created_ge.
Qed.

Definition fn_keeps_key (k : bytes) (fn : option entry -> entry) (c : cache) : Prop :=
  e_key (fn (lookup c k)) = k.

Lemma put_fn_key k v now exp c : fn_keeps_key k (put_fn k v now exp) c.
Proof. reflexivity. Qed.

Lemma keep_fn_key k v now exp c : fn_keeps_key k (keep_fn k v now exp) c.
Proof.
  unfold fn_keeps_key, keep_fn. destruct (lookup c k) eqn:E; [|reflexivity].
  cbn. now destruct (lookup_in _ _ _ E).
Qed.

(* the map specification of Update, pointwise in the looked-up key *)
Definition update_spec (c : cache) (k : bytes) (fn : option entry -> entry)
           (ev : option entry) (k' : bytes) : option entry :=
  if c_max c =? 0 then lookup c k'
  else
    match ev with
    | Some e => if bytes_eqb (e_key e) k' then None
                else if bytes_eqb k k' then Some (fn (lookup c k)) else lookup c k'
    | None => if bytes_eqb k k' then Some (fn (lookup c k)) else lookup c k'
    end.

(* what is known of an eviction victim e of Update c k fn, c' being the cache
   afterwards: the conclusion of C18_victim_farthest *)
Definition victim_ok (c : cache) (k : bytes) (fn : option entry -> entry) (c' : cache) (e : entry) (added : bool) : Prop :=
  (if bytes_eqb k (e_key e) then fn (lookup c k) = e else lookup c (e_key e) = Some e) /\
  added = negb (bytes_eqb k (e_key e)) /\
  c_count c' = c_max c /\
  (forall m b', (m < bidx c (e_key e))%nat -> nth_error (c_buckets c') m = Some b' ->
                lenZ (b_ents b') <= c_minpb c) /\
  (forall x, lookup c' (e_key x) = Some x -> bidx c (e_key x) = bidx c (e_key e) ->
             e_created x <= e_created e).

Theorem update_correct c k fn orc :
  inv c -> fn_keeps_key k fn c ->
  sure (fun '(c', (ev, added)) =>
    inv c' /\
    (forall k', lookup c' k' = update_spec c k fn ev k') /\
    match ev with
    | Some e => victim_ok c k fn c' e added
    | None => added = if c_max c =? 0 then false else match lookup c k with None => true | Some _ => false end
    end)
  (update c k fn orc).
Proof.
  intros Hi Hk. rewrite update_unfold. unfold update_spec.
  destruct (Z.eqb_spec (c_max c) 0) as [Hz|Hnz]; cbn [sure].
  - split; [assumption|]. split; reflexivity.
  - apply inv_inv0 in Hi as [Hi0 Hle].
    destruct (insert_spec c k fn Hi0 Hk) as (Hi1 & Hmx1 & Hc1 & Hl1). cbn zeta.
    set (c1 := insert c k fn) in *.
    destruct (Z.ltb_spec (c_max c1) (c_count c1)) as [Hover|Hfits]; cbn [sure].
    + (* one entry too many: evict, after which the cache is exactly full *)
      assert (Hpos : 0 < c_count c1) by (destruct Hi1 as (_ & ? & _); lia).
      apply (sure_bind _ _ _ _ (evict_spec c1 orc Hi1 Hpos)).
      intros [c2 e] ((Hi2 & Hmx2 & Hc2 & Hl2) & Hlv & Hfar & Hnew). cbn [sure].
      assert (Hke : e_key e = orc) by apply (lookup_in _ _ _ Hlv).
      assert (Hcount : c_count c2 = c_max c).
      { rewrite Hlv in Hc2. destruct (lookup c k); cbn [occ] in Hc1, Hc2; lia. }
      split; [apply inv_inv0; split; [assumption|lia]|].
      split; [intros k'; now rewrite Hl2, Hl1, Hke|].
      rewrite Hl1 in Hlv. unfold victim_ok. rewrite Hke. repeat split.
      * destruct (bytes_eqb k orc); [congruence|assumption].
      * exact Hcount.
      * exact Hfar.
      * intros x Hx Hbx. apply Hnew; [|exact Hbx].
        rewrite Hl2 in Hx. destruct (bytes_eqb orc (e_key x)); [discriminate|].
        apply (lookup_in _ _ _ Hx).
    + split; [apply inv_inv0; split; [assumption|lia]|].
      split; [exact Hl1|reflexivity].
Qed.
