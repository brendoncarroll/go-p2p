(* p/mbapp as a sound layer of the C01 composition. *)
From P2PV Require Import Lib.Base Lib.Varint Model.Frag Model.Mbapp Model.Layers
  Proofs.BaseP Proofs.FragP Proofs.MbappP Proofs.LayersP.
Open Scope N_scope.

Lemma mb_deliveries (S : list msent) mtu : NoDup (map ms_key S) -> forall inp st,
  mb_inv S st -> Forall (fun sw => genuine_mb S (fst sw) (snd sw)) inp ->
  forall src p, In (src, p) (deliveries_from (mb_rlayer mtu) st inp) ->
  exists m, In m S /\ ms_src m = src /\ ms_payload m = p.
Proof.
  intros Hnd inp.
  apply (deliveries_from_sound (mb_rlayer mtu) (mb_inv S) (genuine_mb S)).
  intros st src w Hinv Hw. cbn [rrecv mb_rlayer].
  destruct (mb_recv mtu st src w) as [[st' d]| |] eqn:Er; [|split; [assumption|discriminate]..].
  destruct (mb_recv_genuine S mtu st src w Hnd Hinv Hw st' d Er) as (I' & D).
  destruct d as [[h body]|]; (split; [exact I'|]); [|discriminate].
  destruct (h_ask h); [discriminate|]. intros p [= <-]. destruct (D h body eq_refl) as (m & A & B & C). eauto.
Qed.

Definition mb_slayer (mtu : Z) : slayer.
Proof.
  refine (mkSLayer (mb_rlayer mtu) (list msent)
            (fun S L => NoDup (map ms_key S) /\ forall m, In m S -> L (ms_src m) (ms_payload m))
            genuine_mb _).
  intros S L inp [Hnd HL] Hall src p Hin.
  destruct (mb_deliveries S mtu Hnd inp [] (mb_inv_init S) Hall src p Hin) as (m & A & <- & <-). now apply HL.
Defined.
