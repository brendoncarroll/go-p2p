(* swarmutil.Queue, buffer ownership: every buffer is in exactly one place (the
   freelist, the queue, or in the hands of one running callback); Deliver writes
   only into a buffer it took from the freelist, so never into one a callback is
   reading or one that is queued; no buffer is ever lost.  Second half: once the
   closed signal is set, under any interleaving (callbacks still running, further
   calls) nothing is accepted and no callback is handed a message.

   In this file bstep is opened once, in bstep_effect, and the step lemmas are facts
   about the seven edges of beffect (QueueRefP computes bstep forwards instead). *)
From P2PV Require Import Lib.Base Model.QueueBuf.
From Coq Require Import Lia Permutation.
Open Scope nat_scope.

Definition all_bufs (s : bq) : list nat := b_free s ++ map fst (b_queue s) ++ b_busy s.

Definition BInv (s : bq) : Prop := NoDup (all_bufs s) /\ length (all_bufs s) = b_cap s.

Lemma binv_new cap mtu : BInv (new_bq cap mtu).
Proof. unfold BInv, all_bufs. cbn. rewrite app_nil_r. split; [apply seq_NoDup|apply seq_length]. Qed.

Lemma remove_nat_perm b l : In b l -> Permutation l (b :: remove_nat b l).
Proof.
  induction l as [|x t IH]; [intros []|]. intros H. cbn [remove_nat].
  destruct (Nat.eqb_spec x b) as [->|Ne]; [reflexivity|].
  destruct H as [->|H]; [congruence|]. rewrite perm_swap. constructor. now apply IH.
Qed.

Lemma existsb_eqb_in b l : existsb (Nat.eqb b) l = true -> In b l.
Proof. intros H. apply existsb_exists in H as [x [Hx E]]. apply Nat.eqb_eq in E. now subst. Qed.

Lemma in_remove_nat b b1 l : In b l -> b <> b1 -> In b (remove_nat b1 l).
Proof.
  intros H Ne. induction l as [|x t IH]; [destruct H|]. cbn [remove_nat].
  destruct (Nat.eqb_spec x b1) as [->|_]; destruct H as [->|H]; [congruence|exact H|now left|right; auto].
Qed.

(* what one event does to the freelist, the queue, the buffers in callbacks' hands
   and the closed flag, and what the caller is told *)
Inductive beffect (s : bq) : bev -> bq -> bout -> Prop :=
| BERefuse m : beffect s (BDeliver m) s BRefused
| BEWrite m b t : b_free s = b :: t -> b_closed s = false ->
    beffect s (BDeliver m) (mkBQ (b_cap s) (b_mtu s) t (b_queue s ++ [(b, m)]) (b_busy s) false) (BWrote b)
| BENothing : b_queue s = [] -> beffect s BRecvBegin s BNothing
| BETake b m t : b_queue s = (b, m) :: t ->
    beffect s BRecvBegin (mkBQ (b_cap s) (b_mtu s) (b_free s) t (b :: b_busy s) (b_closed s)) (BGot b m)
| BEReturn b : In b (b_busy s) ->
    beffect s (BRecvEnd b) (mkBQ (b_cap s) (b_mtu s) (b_free s ++ [b]) (b_queue s) (remove_nat b (b_busy s)) (b_closed s)) BDone
| BEPurge : beffect s BPurge (mkBQ (b_cap s) (b_mtu s) (b_free s ++ map fst (b_queue s)) [] (b_busy s) (b_closed s)) BDone
| BEClose : beffect s BClose (mkBQ (b_cap s) (b_mtu s) (b_free s ++ map fst (b_queue s)) [] (b_busy s) true) BDone.

Lemma bstep_effect s e s' o : bstep s e = Some (s', o) -> beffect s e s' o.
Proof.
  unfold bstep. destruct e as [m| |b| |].
  - destruct (Nat.ltb _ _); [intros [= <- <-]; constructor|].
    destruct (b_closed s) eqn:Ec; [intros [= <- <-]; constructor|].
    destruct (b_free s) as [|b t] eqn:Ef; intros [= <- <-]; now constructor.
  - destruct (b_queue s) as [|[b m] t] eqn:Eq; intros [= <- <-]; now constructor.
  - destruct (existsb (Nat.eqb b) (b_busy s)) eqn:Eb; [|discriminate]. intros [= <- <-].
    constructor. now apply existsb_eqb_in.
  - intros [= <- <-]. constructor.
  - intros [= <- <-]. constructor.
Qed.

Lemma bstep_perm s e s' o : bstep s e = Some (s', o) -> Permutation (all_bufs s) (all_bufs s') /\ b_cap s' = b_cap s.
Proof.
  intros H. split; [|now destruct (bstep_effect _ _ _ _ H)].
  unfold all_bufs. destruct (bstep_effect _ _ _ _ H) as [m|m b t Ef _| |b m t Eq|b Hb| |]; cbn [b_free b_queue b_busy].
  - reflexivity.
  - rewrite Ef, map_app, <- !app_assoc. cbn [map fst app]. rewrite !app_assoc. apply Permutation_middle.
  - reflexivity.
  - rewrite Eq. apply Permutation_app_head, Permutation_middle.
  - rewrite (remove_nat_perm b _ Hb) at 1. rewrite <- !app_assoc.
    apply Permutation_app_head. cbn [app]. symmetry. apply Permutation_middle.
  - now rewrite <- app_assoc.
  - now rewrite <- app_assoc.
Qed.

(* a run only moves buffers about *)
Lemma brun_perm evs : forall s s' os, brun s evs = Some (s', os) -> Permutation (all_bufs s) (all_bufs s') /\ b_cap s' = b_cap s.
Proof.
  induction evs as [|e t IH]; intros s s' os; cbn [brun]; [intros [= <- _]; auto|].
  destruct (bstep s e) as [[s1 o]|] eqn:E1; [|discriminate].
  destruct (brun s1 t) as [[s2 os2]|] eqn:E2; [|discriminate]. intros [= <- _].
  destruct (bstep_perm _ _ _ _ E1) as [P1 C1], (IH _ _ _ E2) as [P2 C2]. split; [now rewrite P1|congruence].
Qed.

Lemma binv_perm s s' : Permutation (all_bufs s) (all_bufs s') -> b_cap s' = b_cap s -> BInv s -> BInv s'.
Proof. intros P C [Nd Len]. split; [exact (Permutation_NoDup P Nd)|]. now rewrite C, <- Len, P. Qed.

Lemma bstep_inv s e s' o : BInv s -> bstep s e = Some (s', o) -> BInv s'.
Proof. intros Hi H. destruct (bstep_perm _ _ _ _ H) as [P C]. exact (binv_perm _ _ P C Hi). Qed.

Theorem brun_inv evs s s' os : BInv s -> brun s evs = Some (s', os) -> BInv s'.
Proof. intros Hi H. destruct (brun_perm _ _ _ _ H) as [P C]. exact (binv_perm _ _ P C Hi). Qed.

(* in every reachable state: whatever Deliver writes into is neither queued nor in
   the hands of a callback *)
Theorem deliver_writes_only_free cap mtu evs s os m s' b :
  brun (new_bq cap mtu) evs = Some (s, os) -> bstep s (BDeliver m) = Some (s', BWrote b) ->
  ~ In b (b_busy s) /\ ~ In b (map fst (b_queue s)).
Proof.
  intros Hr Hs. pose proof (brun_inv evs _ _ _ (binv_new cap mtu) Hr) as [Nd _].
  apply bstep_effect in Hs. inversion Hs as [|? ? t Ef _| | | | |]; subst.
  unfold all_bufs in Nd. rewrite Ef in Nd. cbn [app] in Nd. apply NoDup_cons_iff in Nd as [Ni _].
  rewrite !in_app_iff in Ni. tauto.
Qed.

(* only the end of its own callback takes a buffer out of that callback's hands *)
Lemma bstep_busy s e s' o b : bstep s e = Some (s', o) -> In b (b_busy s) -> e <> BRecvEnd b -> In b (b_busy s').
Proof.
  intros H Hb Ne. destruct (bstep_effect _ _ _ _ H) as [| | | |b1 _| |]; cbn [b_busy]; auto.
  - now right.
  - apply in_remove_nat; congruence.
Qed.

(* a buffer handed to a callback stays out of the freelist and of the queue until
   that callback returns: no other event moves it *)
Theorem busy_until_returned s e s' o b : BInv s -> In b (b_busy s) -> bstep s e = Some (s', o) ->
  e <> BRecvEnd b -> In b (b_busy s') /\ ~ In b (b_free s') /\ ~ In b (map fst (b_queue s')).
Proof.
  intros Hi Hb Hs Ne. pose proof (bstep_busy _ _ _ _ b Hs Hb Ne) as Hb'. split; [exact Hb'|].
  destruct (bstep_inv _ _ _ _ Hi Hs) as [Nd _]. unfold all_bufs in Nd.
  (* b occurs among the busy buffers, so nowhere else in the duplicate-free list of all buffers *)
  apply in_split in Hb' as (l1 & l2 & E). rewrite E, !app_assoc in Nd. apply NoDup_remove_2 in Nd.
  rewrite !in_app_iff in Nd. tauto.
Qed.

(* no buffer is lost: whenever no callback is running, the free and the queued buffers are all there *)
Theorem no_slot_leak cap mtu evs s os :
  brun (new_bq cap mtu) evs = Some (s, os) -> b_busy s = [] ->
  length (b_free s) + length (b_queue s) = cap.
Proof.
  intros Hr Hb. destruct (brun_inv _ _ _ _ (binv_new cap mtu) Hr) as [_ Len], (brun_perm _ _ _ _ Hr) as [_ C].
  unfold all_bufs in Len. rewrite Hb, app_nil_r, app_length, map_length in Len. now rewrite Len, C.
Qed.

Example bq_nontrivial :
  exists s os, brun (new_bq 2 4) [BDeliver (1, 2, [7])%N; BDeliver (1, 2, [8])%N; BRecvBegin; BDeliver (1, 2, [9])%N; BRecvEnd 0; BDeliver (1, 2, [9])%N; BRecvBegin]
               = Some (s, os) /\ os = [BWrote 0; BWrote 1; BGot 0 (1, 2, [7])%N; BRefused; BDone; BWrote 0; BGot 1 (1, 2, [8])%N].
Proof. eexists. eexists. split; vm_compute; reflexivity. Qed.

(* holds of a fresh queue (closed_empty_new) and is kept by every step
   (bstep_closed_empty), so of every state a fresh queue reaches: that is where the
   first hypothesis of nothing_after_close comes from *)
Definition ClosedEmpty (s : bq) : Prop := b_closed s = true -> b_queue s = [].

Lemma closed_empty_new cap mtu : ClosedEmpty (new_bq cap mtu).
Proof. unfold ClosedEmpty. cbn. discriminate. Qed.

(* on a closed and emptied queue every call is refused or finds nothing, and leaves it
   closed and empty; callbacks still running may return *)
Lemma bstep_shut s e s' o : b_closed s = true -> b_queue s = [] -> bstep s e = Some (s', o) ->
  (b_closed s' = true /\ b_queue s' = []) /\ match o with BWrote _ | BGot _ _ => False | _ => True end.
Proof.
  intros Ec Eq H. destruct (bstep_effect _ _ _ _ H) as [|m b t _ Ec'| |b m t Eq'| | |]; cbn [b_closed b_queue]; auto.
  - congruence.  (* BEWrite needs an open queue *)
  - congruence.  (* BETake needs a queued message *)
Qed.

Lemma bstep_closed_empty s e s' o : ClosedEmpty s -> bstep s e = Some (s', o) -> ClosedEmpty s'.
Proof.
  unfold ClosedEmpty. intros Hs H.
  destruct (bstep_effect _ _ _ _ H) as [| | |b m t Eq| | |]; cbn [b_closed b_queue]; auto.
  - discriminate.  (* BEWrite leaves the queue open *)
  - intros Ec. rewrite (Hs Ec) in Eq. discriminate.  (* BETake leaves the flag, and there was a message *)
Qed.

(* after Close: whatever is called, in whatever interleaving with callbacks still running,
   nothing is accepted and no callback is handed a message *)
Theorem nothing_after_close evs : forall s s' os, ClosedEmpty s -> b_closed s = true ->
  brun s evs = Some (s', os) -> forall o, In o os -> match o with BWrote _ | BGot _ _ => False | _ => True end.
Proof.
  induction evs as [|e t IH]; intros s s' os Hce Ec; cbn [brun]; [intros [= _ <-] o []|].
  destruct (bstep s e) as [[s1 o1]|] eqn:E1; [|discriminate].
  destruct (brun s1 t) as [[s2 os2]|] eqn:E2; [|discriminate]. intros [= _ <-] o.
  destruct (bstep_shut _ _ _ _ Ec (Hce Ec) E1) as [[Ec1 Eq1] Ho].
  intros [<-|Hin]; [exact Ho|]. exact (IH s1 s2 os2 (fun _ => Eq1) Ec1 E2 o Hin).
Qed.
