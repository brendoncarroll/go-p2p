(* C07: p2pke.Timer, whose callback may Reset the timer it was fired by. *)
From P2PV Require Import Lib.Base Model.Timer.
From Coq Require Import Lia.
Open Scope nat_scope.

(* a Reset made by the callback is not lost: the timer is pending again after it fired *)
Lemma rearm_survives t b : t_pending t = true -> t_budget t = S b ->
  t_pending (tstep t TElapse) = true /\ t_fires (tstep t TElapse) = S (t_fires t) /\ t_budget (tstep t TElapse) = b.
Proof. intros P B. unfold tstep. rewrite P, B. cbn. auto. Qed.

(* retransmission goes on for as long as the callback re-arms: an armed timer whose
   callback re-arms b more times fires exactly b+1 times and is then idle *)
Theorem fires_until_budget_spent b : forall t fuel, t_pending t = true -> t_budget t = b -> b < fuel ->
  let t' := quiesce fuel t in t_fires t' = t_fires t + S b /\ t_pending t' = false.
Proof.
  induction b as [|b IH]; intros t fuel P B F; (destruct fuel as [|f]; [exfalso; lia|]); cbv zeta; cbn [quiesce]; rewrite P.
  - unfold tstep. rewrite P, B. destruct f; cbn; split; auto; lia.
  - destruct (rearm_survives t b P B) as [P' [Fi B']].
    destruct (IH (tstep t TElapse) f P' B' ltac:(lia)) as [E1 E2]. cbv zeta in E1, E2. split; [|exact E2]. rewrite E1, Fi. lia.
Qed.

(* a stopped timer never fires, however much time passes *)
Theorem stopped_never_fires t evs : t_pending t = false -> (forall e, In e evs -> e = TElapse \/ e = TStop) ->
  t_fires (trun t evs) = t_fires t /\ t_pending (trun t evs) = false.
Proof.
  revert t. induction evs as [|e r IH]; intros t P H; [auto|]. cbn [trun fold_left].
  assert (He : e = TElapse \/ e = TStop) by (apply H; left; auto).
  assert (St : t_fires (tstep t e) = t_fires t /\ t_pending (tstep t e) = false).
  { destruct He as [-> | ->]; unfold tstep; rewrite ?P; auto. }
  destruct St as [F P']. destruct (IH (tstep t e) P') as [F2 P2]; [intros e' He'; apply H; right; auto|].
  unfold trun in *. rewrite F2, F. auto.
Qed.

(* fires only when pending: without an Arm in between, at most one firing per arming round *)
Theorem fires_at_most_budget t : t_fires (tstep t TElapse) <= S (t_fires t).
Proof. unfold tstep. destruct (t_pending t); [destruct (t_budget t)|]; cbn; lia. Qed.

Example timer_script_example :
  tscript timer0 [OArm 3; OQuiesce; OArm 0; OStop; OQuiesce; OArm 1; OQuiesce] = [4; 4; 6].
Proof. reflexivity. Qed.
