(* p/mbapp.  C10: the collector never invents or mixes messages, and the header survives the wire (parse_encode).
   C09: the sender side, what mb_send emits and that it fits (mb_send_packets, mb_tell_err, mb_tell_fits). *)
From P2PV Require Import Lib.Base Lib.Varint Model.Frag Model.Mbapp Proofs.BaseP Proofs.VarintP Proofs.FragP.
From Coq Require Import Lia ZifyBool ZifyN ZifyNat.
(* cbn is to leave the arithmetic of the header words (2 ^ 32, * 2 ^ 16 ...) folded *)
#[local] Arguments N.pow : simpl never.
#[local] Arguments N.mul : simpl never.
#[local] Arguments N.add : simpl never.
#[local] Arguments N.div : simpl never.
#[local] Arguments N.modulo : simpl never.
Open Scope nat_scope.   (* positions in buffers and bitmaps are nat; the receiver and the header further down are over N *)

Lemma copy_at_length buf off d : off + length d <= length buf -> length (copy_at buf off d) = length buf.
Proof.
  intros H. unfold copy_at. rewrite !app_length, !firstn_length, skipn_length. lia.
Qed.

Lemma copy_at_nth buf off d j (x : N) : off + length d <= length buf ->
  nth j (copy_at buf off d) x = if (off <=? j) && (j <? off + length d) then nth (j - off) d x else nth j buf x.
Proof.
  intros H. unfold copy_at.
  assert (E : firstn (length buf - off) d = d) by (apply firstn_all2; lia). rewrite E.
  destruct (Nat.leb_spec off j) as [Hle|Hlt]; cbn [andb].
  - rewrite app_nth2 by (rewrite firstn_length; lia). rewrite firstn_length.
    replace (Nat.min off (length buf)) with off by lia.
    destruct (Nat.ltb_spec j (off + length d)) as [Hin|Hout].
    + now rewrite app_nth1 by lia.
    + rewrite app_nth2 by lia. rewrite nth_skipn'. f_equal. lia.
  - rewrite app_nth1 by (rewrite firstn_length; lia). now rewrite nth_firstn' by lia.
Qed.

Lemma set_bit_nth l i k : nth k (set_bit l i) false = if (k =? i) && (i <? length l) then true else nth k l false.
Proof.
  revert i k. induction l as [|b t IH]; intros i k; cbn [set_bit length].
  - destruct i, k; cbn; rewrite ?Bool.andb_false_r; reflexivity.
  - destruct i as [|i], k as [|k]; cbn [set_bit nth]; try reflexivity.
    rewrite IH. cbn [Nat.eqb]. destruct (k =? i); [|reflexivity]. cbn [andb].
    destruct (Nat.ltb_spec i (length t)), (Nat.ltb_spec (S i) (S (length t))); try lia; reflexivity.
Qed.

Lemma set_bit_len l i : length (set_bit l i) = length l.
Proof. revert i; induction l as [|b t IH]; intros [|i]; cbn; auto. Qed.

(* every position whose part has been recorded holds the payload's byte *)
Definition agree (bits : list bool) (buf pl : bytes) (p : nat) : Prop :=
  length buf = length pl /\
  forall j, j < length pl -> nth (j / p) bits false = true -> nth j buf 0%N = nth j pl 0%N.

Lemma agree_fresh n pl p : agree (repeat false n) (repeat 0%N (length pl)) pl p.
Proof. split; [apply repeat_length|]. intros j _ H. rewrite nth_repeat in H. discriminate. Qed.

Lemma agree_add bits buf pl p i : 0 < p -> agree bits buf pl p -> i * p < length pl ->
  agree (set_bit bits i) (copy_at buf (i * p) (firstn p (skipn (i * p) pl))) pl p.
Proof.
  intros Hp [Hlen Hag] Hoff.
  set (d := firstn p (skipn (i * p) pl)).
  assert (Hd : length d = Nat.min p (length pl - i * p)) by (unfold d; rewrite firstn_length, skipn_length; reflexivity).
  assert (Hfit : i * p + length d <= length buf) by lia.
  split; [now rewrite copy_at_length|].
  intros j Hj Hb. rewrite copy_at_nth by assumption.
  (* outside the range written, position j is not in part i, so its bit was set before *)
  assert (Out : ~ (i * p <= j < i * p + length d) -> nth j buf 0%N = nth j pl 0%N).
  { intros Hout. apply Hag; [assumption|]. rewrite set_bit_nth in Hb.
    destruct (Nat.eqb_spec (j / p) i) as [E|_]; [|exact Hb].
    assert (i * p <= j < i * p + p) by (subst i; split; nia). lia. }
  destruct (Nat.leb_spec (i * p) j); [destruct (Nat.ltb_spec j (i * p + length d))|]; cbn [andb];
    [|apply Out; lia..].
  unfold d. rewrite nth_firstn', nth_skipn' by lia. f_equal. lia.
Qed.

Lemma agree_complete bits buf pl p : 0 < p -> agree bits buf pl p ->
  forallb (fun b => b) bits = true -> length pl <= length bits * p -> buf = pl.
Proof.
  intros Hp [Hlen Hag] Hall Hcov. apply nth_ext with (d := 0%N) (d' := 0%N); [assumption|].
  intros j Hj. rewrite Hlen in Hj. apply Hag; [assumption|].
  rewrite forallb_forall in Hall. apply Hall. apply nth_In.
  apply Nat.div_lt_upper_bound; lia.
Qed.

Open Scope N_scope.

Record msent := mkMs {
  ms_src : bytes; ms_origin : N; ms_counter : N; ms_ask : bool; ms_reply : bool;
  ms_psize : nat;            (* the sender's part size *)
  ms_payload : bytes }.

Definition ms_key (m : msent) : col_key :=
  (ms_src m, ms_origin m, 4 * ms_counter m + (if ms_ask m then 2 else 0) + (if ms_reply m then 1 else 0)).
Definition ms_chunks (m : msent) : list bytes := chunks (ms_psize m) (ms_payload m).
Definition wf_ms (m : msent) : Prop := (0 < ms_psize m)%nat.

(* a genuine packet of a ledger message, from that message's source: it parses
   to the message's identification and either the whole payload (fewer than two
   parts) or part i of n with the i-th chunk as body *)
Definition genuine_mb (L : list msent) (src pkt : bytes) : Prop :=
  exists m h body, In m L /\ wf_ms m /\ ms_src m = src /\ parse_mb pkt = Ok (h, body) /\
    h_origin h = ms_origin m /\ h_counter h = ms_counter m /\ h_ask h = ms_ask m /\ h_reply h = ms_reply m /\
    h_total h = lenN (ms_payload m) /\ h_count h = lenN (ms_chunks m) /\
    ((h_count h < 2 /\ body = ms_payload m) \/
     (2 <= h_count h /\ nth_error (ms_chunks m) (N.to_nat (h_index h)) = Some body)).

Definition col_ok (L : list msent) (k : col_key) (c : collector) : Prop :=
  exists m, In m L /\ wf_ms m /\ ms_key m = k /\
    c_count c = lenN (ms_chunks m) /\ length (c_bits c) = length (ms_chunks m) /\
    agree (c_bits c) (c_buf c) (ms_payload m) (ms_psize m).
Definition mb_inv (L : list msent) (st : mb_state) : Prop := forall k c, In (k, c) st -> col_ok L k c.

Lemma ck_eqb_spec a b : reflect (a = b) (ck_eqb a b).
Proof.
  destruct a as [[a1 a2] a3], b as [[b1 b2] b3]. unfold ck_eqb. cbn [fst snd].
  destruct (bytes_eqb_spec a1 b1) as [->|N1]; [|constructor; congruence].
  destruct (N.eqb_spec a2 b2) as [->|N2]; [|constructor; congruence].
  destruct (N.eqb_spec a3 b3) as [->|N3]; constructor; congruence.
Qed.

(* col_ok for one message; col_ok orders its conjuncts otherwise than tinv, hence the equivalence below where
   FragP's inv has conversion *)
Definition col_for (m : msent) (c : collector) : Prop :=
  wf_ms m /\ c_count c = lenN (ms_chunks m) /\ length (c_bits c) = length (ms_chunks m) /\
  agree (c_bits c) (c_buf c) (ms_payload m) (ms_psize m).

Lemma mb_inv_tinv L st : mb_inv L st <-> tinv ms_key col_for L st.
Proof.
  split; intros H k c Hin; destruct (H k c Hin) as (m & Hm & A & B & C); exists m; unfold col_for; tauto.
Qed.

Lemma col_for_fresh m : wf_ms m ->
  col_for m (mkCol (lenN (ms_chunks m)) (repeat false (N.to_nat (lenN (ms_chunks m))))
                   (repeat 0 (N.to_nat (lenN (ms_payload m))))).
Proof.
  intros Hwf. split; [exact Hwf|]. cbn [c_count c_bits c_buf]. rewrite !lenN_spec, !Nat2N.id, repeat_length.
  split; [reflexivity|split; [reflexivity|apply agree_fresh]].
Qed.

Lemma col_for_add m c i body : col_for m c -> nth_error (ms_chunks m) i = Some body ->
  col_for m (add_part c (N.of_nat i) body).
Proof.
  intros (Hwf & Hcnt & Hbits & Hag) Hnth. split; [exact Hwf|]. unfold wf_ms, ms_chunks in *.
  set (p := ms_psize m) in *. set (pl := ms_payload m) in *. set (n := length (chunks p pl)) in *.
  pose proof (nth_error_lt _ _ _ Hnth) as Hi. pose proof (chunks_nth_length _ _ _ _ Hwf Hnth) as Hlb.
  destruct (chunks_count p pl Hwf) as (Hup & _). fold n in Hi, Hlb, Hup.
  rewrite chunks_nth in Hnth by assumption.
  destruct (Nat.ltb_spec (i * p) (length pl)) as [Hoff|]; [|discriminate]. injection Hnth as <-.
  assert (Ecnt : c_count c = N.of_nat n) by now rewrite Hcnt, lenN_spec.
  unfold add_part. destruct (N.leb_spec (c_count c) (N.of_nat i)); [lia|]. rewrite Nat2N.id.
  destruct (nth i (c_bits c) false); [auto|].  (* a part already recorded leaves the collector as it was *)
  (* the offset computed from the part's length is i * p: the last part has length |pl| - i * p (Hlb), so
     |buf| - |body| = i * p; the others have length p; the tests `S i = n` and `i = n - 1` agree since i < n *)
  set (offset := if N.of_nat i =? c_count c - 1 then _ else _).
  assert (Eo : offset = Z.of_nat (i * p)).
  { unfold offset. rewrite !lenN_spec, Hlb, Ecnt, (proj1 Hag). clear - Hi Hoff Hup.
    destruct (Nat.eqb_spec (S i) n), (N.eqb_spec (N.of_nat i) (N.of_nat n - 1)); lia. }
  rewrite Eo, lenN_spec, (proj1 Hag).
  destruct (Z.ltb_spec (Z.of_nat (i * p)) 0); [lia|].
  destruct (Z.leb_spec (Z.of_N (N.of_nat (length pl))) (Z.of_nat (i * p))); [lia|].
  cbn [orb c_count c_bits c_buf]. rewrite Nat2Z.id, set_bit_len.
  split; [assumption|]. split; [assumption|]. now apply agree_add.
Qed.

Lemma col_for_complete m c : col_for m c -> forallb (fun b => b) (c_bits c) = true -> c_buf c = ms_payload m.
Proof.
  intros (Hwf & _ & Hbits & Hag) Hall. apply (agree_complete _ _ _ _ Hwf Hag Hall).
  rewrite Hbits. now apply chunks_count.
Qed.

(* stated for whatever mb_recv answers, unlike frag_recv_genuine: a genuine packet is refused when it
   announces more than the receiver's mtu *)
Lemma mb_recv_genuine L mtu st src pkt :
  NoDup (map ms_key L) -> mb_inv L st -> genuine_mb L src pkt ->
  forall st' d, mb_recv mtu st src pkt = Ok (st', d) ->
  mb_inv L st' /\
  forall h body, d = Some (h, body) -> exists m, In m L /\ ms_src m = src /\ body = ms_payload m.
Proof.
  intros Hnd Hinv (m & h & body & Hin & Hwf & <- & Hparse & Ho & Hc & Ha & Hr & Ht & Hn & Hcase) st' d.
  rewrite mb_inv_tinv in *. unfold mb_recv. rewrite Hparse.
  destruct (_ <? _)%Z; [discriminate|].
  destruct (N.ltb_spec (h_count h) 2) as [Hlt|Hge].
  - intros [= <- <-]. split; [exact Hinv|]. intros h0 b0 [= <- <-].
    destruct Hcase as [[_ ->]|[Hx _]]; [|now apply N.lt_nge in Hlt]. exists m. auto.
  - destruct Hcase as [[Hx _]|[_ Hnth]]; [now apply N.lt_nge in Hx|].
    rewrite Ho, Hc, Ha, Hr. change (ms_src m, ms_origin m, _) with (ms_key m).
    set (c := match col_get st (ms_key m) with Some c => c | None => _ end).
    assert (Hc0 : col_for m c).
    { unfold c. destruct (col_get st (ms_key m)) as [c0|] eqn:Eg.
      - exact (tinv_get ck_eqb_spec Hnd Hinv Hin Eg).
      - rewrite Hn, Ht. now apply col_for_fresh. }
    rewrite <- (N2Nat.id (h_index h)). pose proof (col_for_add m c _ body Hc0 Hnth) as Hc1.
    destruct (forallb (fun b => b) _) eqn:Eall; intros [= <- <-].
    + split; [exact (tinv_incl (tdel_incl ck_eqb) Hinv)|].
      intros h0 b0 [= <- <-]. exists m. split; [assumption|split; [reflexivity|]]. now apply col_for_complete.
    + split; [|discriminate]. exact (tinv_put ck_eqb Hinv Hin Hc1).
Qed.

Lemma mb_inv_init L : mb_inv L [].
Proof. intros k c []. Qed.

Lemma mb_inv_cleanup L st drop : mb_inv L st -> mb_inv L (mb_cleanup st drop).
Proof. intros H k c Hk. exact (H k c (incl_filter _ st _ Hk)). Qed.

(* a schedule: genuine packets in any order, multiplicity and omission, and cleanups *)
Inductive mb_action := MDeliver (src pkt : bytes) | MCleanup (drop : col_key -> bool).

Definition mb_ok_action (L : list msent) (a : mb_action) : Prop :=
  match a with MDeliver src pkt => genuine_mb L src pkt | MCleanup _ => True end.

Fixpoint mb_run_sched (mtu : Z) (st : mb_state) (acts : list mb_action) : list (bytes * bytes) :=
  match acts with
  | [] => []
  | MDeliver src pkt :: t =>
      match mb_recv mtu st src pkt with
      | Ok (st', Some (h, body)) => (src, body) :: mb_run_sched mtu st' t
      | Ok (st', None) => mb_run_sched mtu st' t
      | _ => mb_run_sched mtu st t
      end
  | MCleanup drop :: t => mb_run_sched mtu (mb_cleanup st drop) t
  end.

Theorem mb_reassembly_sound L mtu : NoDup (map ms_key L) ->
  forall acts st, mb_inv L st -> Forall (mb_ok_action L) acts ->
  forall src p, In (src, p) (mb_run_sched mtu st acts) ->
    exists m, In m L /\ ms_src m = src /\ ms_payload m = p.
Proof.
  intros Hnd. induction acts as [|a t IH]; intros st Hinv Hall src p Hin; [contradiction|].
  inversion Hall as [|? ? Ha Ht]; subst. destruct a as [s pkt|drop]; cbn [mb_run_sched] in Hin.
  - cbn [mb_ok_action] in Ha.
    destruct (mb_recv mtu st s pkt) as [[st' d]| |] eqn:Er; [|now apply (IH st)..].
    destruct (mb_recv_genuine L mtu st s pkt Hnd Hinv Ha st' d Er) as (I' & D).
    destruct d as [[h body]|]; [|now apply (IH st')].
    destruct Hin as [[= <- <-]|Hin]; [|now apply (IH st')].
    destruct (D h body eq_refl) as (m & A & B & C). exists m. auto.
  - eapply IH; [|exact Ht|exact Hin]. now apply mb_inv_cleanup.
Qed.

Lemma encode_header_len h : lenN (encode_header h) = 24.
Proof. unfold encode_header. rewrite !lenN_app, !be_encode_len. reflexivity. Qed.

(* word0 h = k * 2^30 + e with the two flags in k = 2 * ask + reply and e a byte:
   the flags are bits 1 and 0 of word0 h / 2^30 = k *)
Lemma word0_spec h :
  N.testbit (word0 h) 31 = h_ask h /\ N.testbit (word0 h) 30 = h_reply h /\
  word0 h mod 256 = h_err h mod 256 /\ word0 h < 2 ^ 32.
Proof.
  unfold word0. pose proof (N.mod_lt (h_err h) 256 ltac:(lia)) as He. revert He.
  generalize (h_err h mod 256) as e. intros e He.
  set (k := (if h_ask h then 2 else 0) + (if h_reply h then 1 else 0)).
  replace (_ + _ + e) with (e + k * 2 ^ 22 * 256) by (unfold k; destruct (h_ask h), (h_reply h); cbn; lia).
  assert (Q : (e + k * 2 ^ 22 * 256) / 2 ^ 30 = k).
  { rewrite <- N.mul_assoc. change (2 ^ 22 * 256) with (2 ^ 30). rewrite N.div_add, N.div_small; [reflexivity| |discriminate].
    apply N.lt_trans with 256; [assumption|reflexivity]. }
  rewrite <- (N.shiftr_spec' _ 30 1), <- (N.shiftr_spec' _ 30 0), N.shiftr_div_pow2, Q, N.mod_add, N.mod_small
    by (assumption || discriminate).
  unfold k; destruct (h_ask h), (h_reply h); repeat split; cbn; lia.
Qed.

Definition hdr_in_range (h : mb_header) : Prop :=
  h_origin h < 2 ^ 32 /\ h_counter h < 2 ^ 32 /\ h_total h < 2 ^ 32 /\
  h_index h < 2 ^ 16 /\ h_count h < 2 ^ 16 /\ h_timeout h < 2 ^ 32 /\ h_err h < 256.

Theorem parse_encode h body : hdr_in_range h -> parse_mb (encode_header h ++ body) = Ok (h, body).
Proof.
  intros (Ho & Hc & Ht & Hi & Hn & Hm & He). unfold parse_mb.
  destruct (N.ltb_spec (lenN (encode_header h ++ body)) 24) as [Hlt|_]; [rewrite lenN_app, encode_header_len in Hlt; lia|].
  unfold encode_header. rewrite !N.mod_small by assumption.
  set (e0 := be_encode 4 (word0 h)). set (e1 := be_encode 4 (h_origin h)). set (e2 := be_encode 4 (h_counter h)).
  set (e3 := be_encode 4 (h_total h)). set (e4a := be_encode 2 (h_index h)). set (e4b := be_encode 2 (h_count h)).
  set (e5 := be_encode 4 (h_timeout h)).
  set (x := (e0 ++ e1 ++ e2 ++ e3 ++ e4a ++ e4b ++ e5) ++ body).
  (* the widths are literals: each offset is the length of the fields before it, and the
     buffer splits there, by computation *)
  assert (W0 : takeN 4 (dropN (4 * 0) x) = e0) by exact (field_at [] e0 _).
  assert (W1 : takeN 4 (dropN (4 * 1) x) = e1) by exact (field_at e0 e1 _).
  assert (W2 : takeN 4 (dropN (4 * 2) x) = e2) by exact (field_at (e0 ++ e1) e2 _).
  assert (W3 : takeN 4 (dropN (4 * 3) x) = e3) by exact (field_at (e0 ++ e1 ++ e2) e3 _).
  assert (W4 : takeN 4 (dropN (4 * 4) x) = e4a ++ e4b) by exact (field_at (e0 ++ e1 ++ e2 ++ e3) (e4a ++ e4b) _).
  assert (W5 : takeN 4 (dropN (4 * 5) x) = e5) by exact (field_at (e0 ++ e1 ++ e2 ++ e3 ++ e4a ++ e4b) e5 body).
  assert (Db : dropN 24 x = body) by exact (dropN_app_len (e0 ++ e1 ++ e2 ++ e3 ++ e4a ++ e4b ++ e5) body).
  rewrite W0, W1, W2, W3, W4, W5, Db. clear x W0 W1 W2 W3 W4 W5 Db.
  destruct (word0_spec h) as (F31 & F30 & Fm & Fl).
  unfold e0, e1, e2, e3, e4a, e4b, e5. rewrite be_decode_app, be_encode_len, !be_decode_encode by assumption.
  rewrite F31, F30, Fm, (N.mod_small (h_err h)) by assumption.
  (* word 4 is index * 2^16 + count with count < 2^16 (Hn): / 2^16 gives the index back, mod 2^16 the count *)
  change (256 ^ N.of_nat 2) with (2 ^ 16). assert (H16 : 2 ^ 16 <> 0) by discriminate.
  rewrite (N.div_add_l _ _ _ H16), (N.div_small _ _ Hn), N.add_0_r.
  rewrite N.add_comm, (N.mod_add _ _ _ H16), (N.mod_small _ _ Hn).
  destruct h; reflexivity.
Qed.

Lemma mb_send_packets inner h payload : (1 <= part_size inner)%Z ->
  let cs := chunks (Z.to_nat (part_size inner)) payload in
  let hd i := encode_header (mkHdr (h_ask h) (h_reply h) (h_err h) (h_origin h) (h_counter h) (lenN payload)
                                   i (lenN cs) (h_timeout h)) in
  exists pkts, mb_send inner h payload = Ok pkts /\
    forall pkt, In pkt pkts -> exists i body, pkt = hd i ++ body /\
      ((lenN cs < 2 /\ i = 0 /\ body = payload) \/ (2 <= lenN cs /\ nth_error cs (N.to_nat i) = Some body)).
Proof.
  intros Hp. cbn zeta. unfold mb_send. destruct (Z.ltb_spec (part_size inner) 1); [lia|].
  destruct (chunks _ payload) as [|c [|c2 t]]; (eexists; split; [reflexivity|]).
  1, 2: intros pkt [<-|[]]; exists 0, payload; split; [reflexivity|left; split; [reflexivity|auto]].
  intros pkt Hin. apply (in_map_number_from (fun p => _ ++ snd p)) in Hin as (j & c' & Hj & ->).
  exists (N.of_nat j), c'. split; [reflexivity|]. right. rewrite Nat2N.id, !lenN_cons. split; [lia|exact Hj].
Qed.

Lemma mb_tell_err inner cfg h p :
  (mb_mtu inner cfg < Z.of_N (lenN p))%Z -> mb_tell inner cfg h p = Err E_MTU.
Proof. intros H. unfold mb_tell. destruct (Z.ltb_spec (mb_mtu inner cfg) (Z.of_N (lenN p))); [reflexivity|lia]. Qed.

Lemma mb_tell_fits inner cfg h p :
  (1 <= part_size inner)%Z -> (Z.of_N (lenN p) <= mb_mtu inner cfg)%Z ->
  exists ps, mb_tell inner cfg h p = Ok ps /\ Forall (fun w => (Z.of_N (lenN w) <= inner)%Z) ps.
Proof.
  intros Hp Hm. unfold mb_tell. destruct (Z.ltb_spec (mb_mtu inner cfg) (Z.of_N (lenN p))); [lia|].
  destruct (mb_send_packets inner h p Hp) as (ps & -> & Hps). exists ps. split; [reflexivity|].
  apply Forall_forall. intros w Hw. destruct (Hps w Hw) as (i & body & -> & Hcase).
  set (sz := Z.to_nat (part_size inner)) in *. assert (Hsz : (0 < sz)%nat) by lia.
  destruct (chunks_count sz p Hsz) as (_ & Hlo).
  enough (length body <= sz)%nat
    by (rewrite lenN_app, encode_header_len, lenN_spec; unfold part_size, HEADER_SIZE in *; lia).
  destruct Hcase as [(Hn & _ & ->)|(_ & Hi)].
  - rewrite lenN_spec in Hn. nia.
  - eapply chunks_size, nth_error_In; eauto.
Qed.

Theorem mb_send_genuine inner (h0 : mb_header) src payload pkts :
  (1 <= part_size inner)%Z ->
  h_origin h0 < 2 ^ 32 -> h_counter h0 < 2 ^ 32 -> h_timeout h0 < 2 ^ 32 -> h_err h0 < 256 ->
  lenN payload < 2 ^ 32 -> lenN (chunks (Z.to_nat (part_size inner)) payload) < 2 ^ 16 ->
  mb_send inner h0 payload = Ok pkts ->
  let m := mkMs src (h_origin h0) (h_counter h0) (h_ask h0) (h_reply h0) (Z.to_nat (part_size inner)) payload in
  wf_ms m /\ forall pkt, In pkt pkts -> genuine_mb [m] src pkt.
Proof.
  intros Hp Ho Hc Hm He Ht Hn Hs m.
  assert (Hwf : wf_ms m) by (unfold wf_ms, m; cbn; lia).
  split; [exact Hwf|]. intros pkt Hin.
  destruct (mb_send_packets inner h0 payload Hp) as (pkts' & Hs' & Hpk). rewrite Hs in Hs'. injection Hs' as <-.
  destruct (Hpk pkt Hin) as (i & body & -> & Hcase).
  eexists m, _, body. split; [now left|]. split; [exact Hwf|]. split; [reflexivity|]. split.
  - apply parse_encode. unfold hdr_in_range. cbn [h_origin h_counter h_total h_index h_count h_timeout h_err].
    repeat split; try assumption.  (* left: the index, 0 or below the part count *)
    destruct Hcase as [(_ & -> & _)|(_ & Hi)]; [reflexivity|].
    apply nth_error_lt in Hi. rewrite lenN_spec in Hn. lia.
  - cbn [h_origin h_counter h_ask h_reply h_total h_count h_index]. repeat split.
    destruct Hcase as [(A & _ & B)|C]; [left|right]; auto.
Qed.
