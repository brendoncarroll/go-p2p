(* Facts about Lib.Base that every proof file shares: results of modelled Go
   functions, lists (what the library of Coq 8.16 lacks), lengths in N, takeN /
   dropN against firstn / skipn, byte strings. *)
From P2PV Require Import Lib.Base.
From Coq Require Import Lia ZifyBool ZifyN ZifyNat Sorting.Permutation Sorting.Sorted.
Open Scope N_scope.

(* r does not panic, and its value, if it has one, satisfies P *)
Definition sure {A} (P : A -> Prop) (r : result A) : Prop :=
  match r with Ok a => P a | Err _ => True | Panic _ => False end.

Lemma sure_bind {A B} (P : A -> Prop) (Q : B -> Prop) r (f : A -> result B) :
  sure P r -> (forall a, P a -> sure Q (f a)) -> sure Q (bind r f).
Proof. destruct r; cbn [sure bind]; auto. Qed.

Lemma sure_ok {A} (P : A -> Prop) r a : sure P r -> r = Ok a -> P a.
Proof. intros H ->. exact H. Qed.

Lemma sure_no_panic {A} (P : A -> Prop) r s : sure P r -> r <> Panic s.
Proof. intros H ->. exact H. Qed.

Lemma firstn_In {A} n (l : list A) x : In x (firstn n l) -> In x l.
Proof. intros H. rewrite <- (firstn_skipn n l). apply in_or_app. now left. Qed.

Lemma skipn_add {A} a b (l : list A) : skipn a (skipn b l) = skipn (b + a) l.
Proof.
  revert l. induction b as [|b IH]; intros l; [reflexivity|].
  destruct l as [|x t]; [now rewrite !skipn_nil|]. cbn [skipn Nat.add]. apply IH.
Qed.

Lemma nth_skipn' {A} (l : list A) n j x : nth j (skipn n l) x = nth (n + j) l x.
Proof.
  revert l. induction n as [|n IH]; intros l; [reflexivity|].
  destruct l as [|y t]; [destruct j; reflexivity|]. cbn [skipn Nat.add nth]. apply IH.
Qed.

Lemma nth_firstn' {A} (l : list A) n j x : (j < n)%nat -> nth j (firstn n l) x = nth j l x.
Proof.
  revert l j. induction n as [|n IH]; intros l j H; [lia|].
  destruct l as [|y t]; [destruct j; reflexivity|]. destruct j as [|j]; [reflexivity|].
  cbn [firstn nth]. apply IH. lia.
Qed.

Lemma nth_error_lt {A} (l : list A) j y : nth_error l j = Some y -> (j < length l)%nat.
Proof. intros H. apply nth_error_Some. congruence. Qed.

Lemma nth_error_ext {A} (l1 l2 : list A) : length l1 = length l2 ->
  (forall j d, nth_error l1 j = Some d -> nth_error l2 j = Some d) -> l1 = l2.
Proof.
  revert l2; induction l1 as [|x t IH]; intros [|y u] Hl Hn; cbn [length] in Hl; try discriminate; [reflexivity|].
  f_equal; [specialize (Hn O x eq_refl); cbn in Hn; congruence|].
  apply IH; [lia|]. intros j d H. exact (Hn (S j) d H).
Qed.

Lemma in_snoc {A} (l : list A) x v : In v (l ++ [x]) <-> x = v \/ In v l.
Proof. rewrite in_app_iff. cbn [In]. tauto. Qed.

Lemma filter_snoc {A} (f : A -> bool) l x : filter f (l ++ [x]) = filter f l ++ (if f x then [x] else []).
Proof. rewrite filter_app. reflexivity. Qed.

Lemma NoDup_snoc {A} (l : list A) x : NoDup l -> ~ In x l -> NoDup (l ++ [x]).
Proof.
  intros Hl Hx. apply (Permutation_NoDup (Permutation_cons_append l x)). now constructor.
Qed.

Lemma NoDup_map_inj {A B} (f : A -> B) (l : list A) a b :
  NoDup (map f l) -> In a l -> In b l -> f a = f b -> a = b.
Proof.
  induction l as [|x l IH]; intros Hnd Ha Hb E; [contradiction|]. inversion Hnd as [|? ? Hni Hnd']; subst.
  destruct Ha as [->|Ha], Hb as [->|Hb]; auto; exfalso; apply Hni; [rewrite E|rewrite <- E]; now apply in_map.
Qed.

Lemma NoDup_map_filter {A B} (g : A -> B) (f : A -> bool) l : NoDup (map g l) -> NoDup (map g (filter f l)).
Proof.
  induction l as [|h t IH]; cbn [map filter]; intros H; [constructor|].
  inversion H as [|? ? Hh Ht]; subst. destruct (f h); [|now apply IH].
  cbn [map]. constructor; [|now apply IH].
  intros Hin. apply Hh. revert Hin. apply incl_map, incl_filter.
Qed.

Lemma NoDup_app_intro {A} (l1 l2 : list A) :
  NoDup l1 -> NoDup l2 -> (forall x, In x l1 -> In x l2 -> False) -> NoDup (l1 ++ l2).
Proof.
  induction l1 as [|h t IH]; intros H1 H2 Hd; cbn [app]; [assumption|].
  inversion H1 as [|? ? Hn Ht]; subst. constructor.
  - intros Hin. apply in_app_or in Hin as [Hin|Hin]; [contradiction|]. apply (Hd h); [now left|assumption].
  - apply IH; auto. intros x Hx Hx'. apply (Hd x); [now right|assumption].
Qed.

Lemma filter_all {A} (f : A -> bool) l : (forall x, In x l -> f x = true) -> filter f l = l.
Proof.
  induction l as [|h t IH]; intros H; cbn [filter]; [reflexivity|].
  rewrite (H h (or_introl eq_refl)). f_equal. apply IH. intros x Hx. apply H. now right.
Qed.

Lemma filter_none {A} (f : A -> bool) l : (forall x, In x l -> f x = false) -> filter f l = [].
Proof.
  induction l as [|h t IH]; intros H; cbn [filter]; [reflexivity|].
  rewrite (H h (or_introl eq_refl)). apply IH. intros x Hx. apply H. now right.
Qed.

Lemma filter_flat_map {A B} (f : B -> bool) (g : A -> list B) l :
  filter f (flat_map g l) = flat_map (fun x => filter f (g x)) l.
Proof. now rewrite !flat_map_concat_map, <- concat_filter_map, map_map. Qed.

Lemma StronglySorted_app {A} (R : A -> A -> Prop) l1 l2 :
  StronglySorted R l1 -> StronglySorted R l2 ->
  (forall x y, In x l1 -> In y l2 -> R x y) -> StronglySorted R (l1 ++ l2).
Proof.
  induction l1 as [|h t IH]; intros H1 H2 Hx; cbn [app]; [assumption|].
  inversion H1 as [|? ? Ht Hall]; subst. constructor.
  - apply IH; auto. intros x y Hi Hy. apply Hx; [now right|assumption].
  - apply Forall_app. split; [assumption|].
    apply Forall_forall. intros y Hy. apply Hx; [now left|assumption].
Qed.

Lemma sorted_head_min {A} (R : A -> A -> Prop) (Hr : forall x, R x x) l x :
  StronglySorted R l -> hd_error l = Some x -> forall y, In y l -> R x y.
Proof.
  intros Hs Hh y Hy. destruct l as [|h t]; [discriminate|]. injection Hh as ->.
  inversion Hs as [|? ? _ Hall]; subst. destruct Hy as [->|Hy]; [apply Hr|].
  rewrite Forall_forall in Hall. now apply Hall.
Qed.

Lemma lenN_acc_spec {A} (l : list A) acc : lenN_acc l acc = acc + N.of_nat (length l).
Proof. revert acc; induction l as [|x l IH]; intros acc; cbn [lenN_acc length]; [lia|]. rewrite IH; lia. Qed.

Lemma lenN_spec {A} (l : list A) : lenN l = N.of_nat (length l).
Proof. unfold lenN; rewrite lenN_acc_spec; lia. Qed.

Lemma lenN_nil {A} : lenN (@nil A) = 0.
Proof. reflexivity. Qed.

Lemma lenN_cons {A} (x : A) l : lenN (x :: l) = N.succ (lenN l).
Proof. rewrite !lenN_spec; cbn [length]; lia. Qed.

Lemma lenN_app {A} (a b : list A) : lenN (a ++ b) = lenN a + lenN b.
Proof. rewrite !lenN_spec, app_length; lia. Qed.

Lemma takeN_firstn {A} n (l : list A) : takeN n l = firstn (N.to_nat n) l.
Proof.
  revert n; induction l as [|x l IH]; intros n; cbn [takeN].
  - now rewrite firstn_nil.
  - destruct (N.eqb_spec n 0) as [->|Hn]; [reflexivity|].
    replace (N.to_nat n) with (S (N.to_nat (N.pred n))) by lia.
    cbn [firstn]; now rewrite IH.
Qed.

Lemma dropN_skipn {A} n (l : list A) : dropN n l = skipn (N.to_nat n) l.
Proof.
  revert n; induction l as [|x l IH]; intros n; cbn [dropN].
  - now rewrite skipn_nil.
  - destruct (N.eqb_spec n 0) as [->|Hn]; [reflexivity|].
    replace (N.to_nat n) with (S (N.to_nat (N.pred n))) by lia.
    cbn [skipn]; now rewrite IH.
Qed.

Lemma takeN_app_len {A} (a b : list A) : takeN (lenN a) (a ++ b) = a.
Proof.
  rewrite takeN_firstn, lenN_spec, Nat2N.id.
  rewrite firstn_app, Nat.sub_diag, firstn_all; cbn [firstn]; now rewrite app_nil_r.
Qed.

Lemma dropN_app_len {A} (a b : list A) : dropN (lenN a) (a ++ b) = b.
Proof.
  rewrite dropN_skipn, lenN_spec, Nat2N.id.
  rewrite skipn_app, Nat.sub_diag, skipn_all; reflexivity.
Qed.

Lemma takeN_dropN {A} n (l : list A) : takeN n l ++ dropN n l = l.
Proof. rewrite takeN_firstn, dropN_skipn; apply firstn_skipn. Qed.

Lemma lenN_takeN {A} n (l : list A) : lenN (takeN n l) = N.min n (lenN l).
Proof. rewrite takeN_firstn, !lenN_spec, firstn_length; lia. Qed.

Lemma lenN_dropN {A} n (l : list A) : lenN (dropN n l) = lenN l - n.
Proof. rewrite dropN_skipn, !lenN_spec, skipn_length; lia. Qed.

Lemma dropN_dropN {A} a b (l : list A) : dropN b (dropN a l) = dropN (a + b) l.
Proof. rewrite !dropN_skipn, skipn_add. f_equal. lia. Qed.

Lemma lenN_pos {A} (l : list A) : l <> [] -> 0 < lenN l.
Proof. destruct l; [contradiction|]. rewrite lenN_cons. lia. Qed.

Lemma lenN_eqb0 {A} (l : list A) : l <> [] -> (lenN l =? 0) = false.
Proof. intros H%lenN_pos. lia. Qed.

(* reading a prefix of known length back: not short, the prefix, the rest *)
Lemma read_app {A} (a b : list A) n : lenN a = n ->
  (lenN (a ++ b) <? n) = false /\ takeN n (a ++ b) = a /\ dropN n (a ++ b) = b.
Proof. intros <-. rewrite lenN_app, takeN_app_len, dropN_app_len. repeat split. lia. Qed.

(* a field in the middle of a concatenation *)
Lemma field_at {A} (pre e post : list A) : takeN (lenN e) (dropN (lenN pre) (pre ++ e ++ post)) = e.
Proof. now rewrite dropN_app_len, takeN_app_len. Qed.

Lemma bytes_eqb_spec a b : reflect (a = b) (bytes_eqb a b).
Proof.
  revert b; induction a as [|x a IH]; intros [|y b]; cbn [bytes_eqb]; try (constructor; congruence).
  destruct (N.eqb_spec x y) as [->|Hxy]; cbn [andb].
  - destruct (IH b) as [->|Hab]; constructor; congruence.
  - constructor; congruence.
Qed.

Lemma bytes_eqb_refl a : bytes_eqb a a = true.
Proof. destruct (bytes_eqb_spec a a); congruence. Qed.

Lemma wf_bytes_app a b : wf_bytes (a ++ b) = wf_bytes a && wf_bytes b.
Proof. unfold wf_bytes; apply forallb_app. Qed.

Lemma wf_bytes_forall x : wf_bytes x = true <-> Forall (fun b => b < 256) x.
Proof.
  unfold wf_bytes; rewrite forallb_forall, Forall_forall.
  split; intros H b Hb; specialize (H b Hb); unfold wf_byte in *; lia.
Qed.

Lemma In_takeN {A} n (l : list A) x : In x (takeN n l) -> In x l.
Proof. rewrite takeN_firstn. apply firstn_In. Qed.

Lemma In_dropN {A} n (l : list A) x : In x (dropN n l) -> In x l.
Proof. intros H; rewrite <- (takeN_dropN n l); apply in_or_app; now right. Qed.

Lemma wf_bytes_takeN n x : wf_bytes x = true -> wf_bytes (takeN n x) = true.
Proof.
  rewrite !wf_bytes_forall, !Forall_forall; intros H b Hb; apply H; eapply In_takeN; eauto.
Qed.

Lemma wf_bytes_dropN n x : wf_bytes x = true -> wf_bytes (dropN n x) = true.
Proof.
  rewrite !wf_bytes_forall, !Forall_forall; intros H b Hb; apply H; eapply In_dropN; eauto.
Qed.

Lemma size_nat_bound x : x < 2 ^ N.of_nat (N.size_nat x).
Proof.
  destruct x as [|p]; [cbn; lia|].
  cbn [N.size_nat]. induction p as [p IH|p IH|]; cbn [Pos.size_nat].
  - rewrite Nat2N.inj_succ, N.pow_succ_r'. lia.
  - rewrite Nat2N.inj_succ, N.pow_succ_r'. lia.
  - cbn. lia.
Qed.
