(* C19, the order: DistanceCmp is bytes.Compare of the XOR distances, hence a total
   preorder; one bit of locus^key orders the entries of a bucket against those of
   every deeper bucket (cross_bucket); insertion sort by distance. *)
From P2PV Require Import Lib.Base Model.Distance.
From Coq Require Import Lia ZifyBool ZifyN ZifyNat Sorting.Sorted Sorting.Permutation.
Open Scope N_scope.

Lemma lex_cons x a y b :
  lex_compare (x :: a) (y :: b) = match x ?= y with Eq => lex_compare a b | c => c end.
Proof.
  cbn [lex_compare]. rewrite !N.ltb_compare, (N.compare_antisym x y).
  destruct (x ?= y); reflexivity.
Qed.

Lemma lex_refl a : lex_compare a a = Eq.
Proof. induction a as [|x a IH]; [reflexivity|]. now rewrite lex_cons, N.compare_refl. Qed.

Lemma lex_antisym a b : lex_compare b a = CompOpp (lex_compare a b).
Proof.
  revert b; induction a as [|x a IH]; intros [|y b]; try reflexivity.
  rewrite !lex_cons, (N.compare_antisym x y).
  destruct (x ?= y); [apply IH|reflexivity|reflexivity].
Qed.

Lemma lex_eq a b : lex_compare a b = Eq -> a = b.
Proof.
  revert b; induction a as [|x a IH]; intros [|y b]; try discriminate; [reflexivity|].
  rewrite lex_cons. destruct (N.compare_spec x y) as [->| |]; try discriminate.
  intros H. now rewrite (IH b H).
Qed.

Lemma lex_trans_lt_r a : forall b c,
  lex_compare a b <> Gt -> lex_compare b c = Lt -> lex_compare a c = Lt.
Proof.
  induction a as [|x a IH]; intros [|y b] [|z c]; try (cbn [lex_compare]; congruence).
  rewrite !lex_cons.
  destruct (N.compare_spec x y) as [->|Hxy|]; try congruence;
    destruct (N.compare_spec y z) as [->|Hyz|]; try discriminate.
  - apply IH.
  - reflexivity.
  - now rewrite (proj2 (N.compare_lt_iff x z) Hxy).
  - now rewrite (proj2 (N.compare_lt_iff x z) (N.lt_trans _ _ _ Hxy Hyz)).
Qed.

Lemma lex_trans a : forall b c,
  lex_compare a b <> Gt -> lex_compare b c <> Gt -> lex_compare a c <> Gt.
Proof.
  intros b c Hab Hbc. destruct (lex_compare b c) eqn:E.
  - apply lex_eq in E. now subst c.
  - now rewrite (lex_trans_lt_r a b c Hab E).
  - contradiction.
Qed.

(* DistanceCmp = bytes.Compare of the distances, all lengths *)
Lemma cmp_spec x : forall a b,
  distance_cmp x a b = lex_compare (distance x a) (distance x b).
Proof.
  unfold distance. induction x as [|xi x IH]; intros a b.
  - destruct a, b; reflexivity.
  - destruct a as [|ai a], b as [|bi b]; cbn [distance_cmp xor_bytes lex_compare]; try reflexivity.
    destruct (N.lxor xi ai <? N.lxor xi bi); [reflexivity|].
    destruct (N.lxor xi bi <? N.lxor xi ai); [reflexivity|]. apply IH.
Qed.

Definition dle (x a b : bytes) : Prop := distance_cmp x a b <> Gt.

Lemma dle_refl x a : dle x a a.
Proof. unfold dle. rewrite cmp_spec, lex_refl. discriminate. Qed.

Lemma dle_trans x a b c : dle x a b -> dle x b c -> dle x a c.
Proof. unfold dle. rewrite !cmp_spec. apply lex_trans. Qed.

Lemma cmp_antisym x a b : distance_cmp x b a = CompOpp (distance_cmp x a b).
Proof. rewrite !cmp_spec. apply lex_antisym. Qed.

Lemma dle_total x a b : dle x a b \/ dle x b a.
Proof.
  unfold dle. rewrite (cmp_antisym x a b).
  destruct (distance_cmp x a b); cbn [CompOpp]; [left|left|right]; discriminate.
Qed.

Lemma dle_lt_trans x a b c : dle x a b -> distance_cmp x b c = Lt -> distance_cmp x a c = Lt.
Proof. unfold dle. rewrite !cmp_spec. apply lex_trans_lt_r. Qed.

Lemma dlt_iff x a b : distance_lt x a b = true <-> distance_cmp x a b = Lt.
Proof. unfold distance_lt. destruct (distance_cmp x a b); split; (reflexivity || discriminate). Qed.

Lemma dlt_dle x a b : distance_lt x a b = true -> dle x a b.
Proof. intros H%dlt_iff. unfold dle. rewrite H. discriminate. Qed.

Lemma dlt_false_dle x a b : distance_lt x a b = false -> dle x b a.
Proof.
  unfold distance_lt, dle. rewrite (cmp_antisym x a b).
  destruct (distance_cmp x a b); cbn [CompOpp]; congruence.
Qed.

Lemma dlt_trans x a b c : distance_lt x a b = true -> distance_lt x b c = true -> distance_lt x a c = true.
Proof.
  intros H1%dlt_dle H2. rewrite dlt_iff in *. exact (dle_lt_trans x a b c H1 H2).
Qed.

Lemma dlt_irrefl x a : distance_lt x a a = false.
Proof. unfold distance_lt. now rewrite cmp_spec, lex_refl. Qed.

Lemma distance_sym a : forall b, distance a b = distance b a.
Proof.
  unfold distance. induction a as [|x a IH]; intros [|y b]; cbn [xor_bytes]; try reflexivity.
  now rewrite N.lxor_comm, IH.
Qed.

Lemma distance_zero_iff a : forall b, length a = length b ->
  (all_zero (distance a b) = true <-> a = b).
Proof.
  unfold distance, all_zero. induction a as [|x a IH]; intros [|y b] Hl; cbn in Hl; try discriminate.
  - split; reflexivity.
  - cbn [xor_bytes forallb]. injection Hl as Hl. specialize (IH b Hl).
    rewrite Bool.andb_true_iff, N.eqb_eq, N.lxor_eq_0_iff. split.
    + intros [-> H]. f_equal. now apply IH.
    + intros H. injection H as -> ->. split; [reflexivity|]. now apply IH.
Qed.

(* unequal lengths: zero distance does not imply equality *)
Lemma distance_zero_unequal_lengths :
  all_zero (distance [1] [1; 2]) = true /\ [1] <> [1; 2].
Proof. split; [reflexivity|discriminate]. Qed.

Lemma distance_length a : forall b, length (distance a b) = Nat.min (length a) (length b).
Proof.
  unfold distance. induction a as [|x a IH]; intros [|y b]; cbn [xor_bytes length Nat.min]; try reflexivity.
  now rewrite IH.
Qed.

Lemma log2_lt8 a : a < 256 -> N.log2 a < 8.
Proof.
  intros Ha. destruct (N.eq_dec a 0) as [->|Hn]; [reflexivity|].
  apply N.log2_lt_pow2; lia.
Qed.

Lemma lxor_lt_256 a b : a < 256 -> b < 256 -> N.lxor a b < 256.
Proof.
  intros Ha Hb. destruct (N.eq_dec (N.lxor a b) 0) as [->|Hn]; [lia|].
  apply N.log2_lt_pow2 with (b := 8); [lia|].
  eapply N.le_lt_trans; [apply N.log2_lxor|].
  apply N.max_lub_lt; apply log2_lt8; assumption.
Qed.

(* comparing two numbers by their highest differing bit *)
Lemma lt_by_bit m n t :
  m / 2 ^ (t + 1) = n / 2 ^ (t + 1) -> N.testbit m t = false -> N.testbit n t = true -> m < n.
Proof.
  intros Hh Hm Hn.
  rewrite N.testbit_eqb in Hm, Hn.
  assert (Hp : 2 ^ t <> 0) by (apply N.pow_nonzero; lia).
  rewrite N.add_1_r, N.pow_succ_r', N.mul_comm, <- !N.div_div in Hh by (exact Hp || discriminate).
  (* A = m / 2^t is even, B = n / 2^t is odd and A / 2 = B / 2, so B = A + 1;
     then m < 2^t * (A + 1) = 2^t * B <= n *)
  assert (HB : N.succ (m / 2 ^ t) = n / 2 ^ t).
  { set (A := m / 2 ^ t) in *. set (B := n / 2 ^ t) in *. clearbody A B. lia. }
  apply N.lt_le_trans with (2 ^ t * N.succ (m / 2 ^ t)).
  - apply N.mul_succ_div_gt. exact Hp.
  - rewrite HB. apply N.mul_div_le. exact Hp.
Qed.

(* p has its top bit at t, q lies below t; then bit t of w decides which of w^p, w^q is smaller *)
Lemma byte_order w p q t :
  p / 2 ^ (t + 1) = 0 -> N.testbit p t = true -> q / 2 ^ t = 0 ->
  if N.testbit w t then N.lxor w p < N.lxor w q else N.lxor w q < N.lxor w p.
Proof.
  intros Hp Hpt Hq.
  assert (Hq1 : q / 2 ^ (t + 1) = 0).
  { rewrite N.pow_add_r, <- N.div_div by (try apply N.pow_nonzero; discriminate). rewrite Hq. reflexivity. }
  assert (Hqt : N.testbit q t = false).
  { rewrite N.testbit_eqb, Hq. reflexivity. }
  assert (Hhigh : N.lxor w p / 2 ^ (t + 1) = N.lxor w q / 2 ^ (t + 1)).
  { rewrite <- !N.shiftr_div_pow2, !N.shiftr_lxor, !N.shiftr_div_pow2, Hp, Hq1. reflexivity. }
  destruct (N.testbit w t) eqn:Hw; apply lt_by_bit with t.
  - exact Hhigh.
  - rewrite N.lxor_spec, Hw, Hpt. reflexivity.
  - rewrite N.lxor_spec, Hw, Hqt. reflexivity.
  - symmetry. exact Hhigh.
  - rewrite N.lxor_spec, Hw, Hqt. reflexivity.
  - rewrite N.lxor_spec, Hw, Hpt. reflexivity.
Qed.

Lemma lz8_le b : lz8 b <= 8.
Proof. unfold lz8. destruct (b =? 0); lia. Qed.

Lemma lz8_8 b : lz8 b = 8 <-> b = 0.
Proof. unfold lz8. destruct (N.eqb_spec b 0); split; intros; try lia. Qed.

(* a byte with fewer than 8 leading zeros has its top bit at 7 - lz8 p *)
Lemma lz8_top p : p < 256 -> lz8 p < 8 ->
  p / 2 ^ (7 - lz8 p + 1) = 0 /\ N.testbit p (7 - lz8 p) = true.
Proof.
  unfold lz8. intros Hp Hu. destruct (N.eqb_spec p 0) as [->|Hn]; [lia|].
  pose proof (log2_lt8 p Hp) as Hl.
  replace (7 - (7 - N.log2 p)) with (N.log2 p) by lia. split.
  - apply N.div_small. rewrite N.add_1_r. apply N.log2_spec. lia.
  - apply N.bit_log2. exact Hn.
Qed.

(* q < 256 with lz8 q > u: all bits from t = 7 - u upward are clear *)
Lemma lz8_below q u : q < 256 -> u < lz8 q -> u < 8 -> q / 2 ^ (7 - u) = 0.
Proof.
  unfold lz8. intros Hq Hu Hu8. destruct (N.eqb_spec q 0) as [->|Hn].
  - apply N.div_0_l. apply N.pow_nonzero. lia.
  - pose proof (log2_lt8 q Hq) as Hl.
    apply N.div_small.
    eapply N.lt_le_trans; [apply N.log2_spec; lia|].
    apply N.pow_le_mono_r; lia.
Qed.

(* Leading zeros of locus ^ key.  lzx is distance_lz (lzx_distance_lz, by
   conversion); it is the name under which the statements about the buckets
   (ForEachP.placed) speak of the bucket of a key: for keys at least as long as the
   locus it is Cache.bucketIndex (bucket_index_lzx). *)
Fixpoint lzx (L a : bytes) : N :=
  match L, a with
  | l0 :: L', a0 :: a' => let z := lz8 (N.lxor l0 a0) in if z <? 8 then z else 8 + lzx L' a'
  | _, _ => 0
  end.

Lemma lzx_distance_lz L a : lzx L a = distance_lz L a.
Proof. reflexivity. Qed.

Lemma zerosN_nil n : zerosN n = [] -> n = O.
Proof. destruct n; [reflexivity|discriminate]. Qed.

(* DistanceLz(a, b) == LeadingZeros(Distance(a, b)) (the doc comment of DistanceLz), all lengths *)
Lemma distance_lz_spec a : forall b, distance_lz a b = leading_zeros (distance a b).
Proof.
  induction a as [|x a IH]; intros [|y b]; cbn [distance_lz distance xor_bytes leading_zeros]; try reflexivity.
  destruct (lz8 (N.lxor x y) <? 8); [reflexivity|]. f_equal. apply IH.
Qed.

Lemma bucket_index_lzx L a : (length L <= length a)%nat -> bucket_index L a = lzx L a.
Proof.
  intros H. unfold bucket_index, xor_into. fold (distance L a).
  rewrite firstn_all2, distance_length, Nat.min_l, Nat.sub_diag by (rewrite ?distance_length; lia).
  cbn [zerosN]. rewrite app_nil_r, lzx_distance_lz. symmetry. apply distance_lz_spec.
Qed.

Lemma bit_at_cons b d i : 8 <= i -> bit_at (b :: d) i = bit_at d (i - 8).
Proof.
  intros Hi. unfold bit_at.
  replace (N.to_nat (i / 8)) with (S (N.to_nat ((i - 8) / 8))) by lia.
  cbn [nth_error]. replace ((i - 8) mod 8) with (i mod 8) by lia. reflexivity.
Qed.

Lemma bit_at_head b d i : i < 8 -> bit_at (b :: d) i = N.testbit b (7 - i).
Proof.
  intros Hi. unfold bit_at. replace (i / 8) with 0 by lia. cbn [N.to_nat nth_error].
  replace (i mod 8) with i by lia. reflexivity.
Qed.

Lemma bit_at_nil i : bit_at [] i = false.
Proof. unfold bit_at. destruct (N.to_nat (i / 8)); reflexivity. Qed.

(* One byte of the cross-bucket argument: a differs from the locus byte l at a
   higher bit than b does; that bit of l^k decides which of k^a, k^b is smaller. *)
Lemma byte_cross l a b k : l < 256 -> a < 256 -> b < 256 ->
  lz8 (N.lxor l a) < lz8 (N.lxor l b) ->
  if N.testbit (N.lxor l k) (7 - lz8 (N.lxor l a))
  then N.lxor k a < N.lxor k b else N.lxor k b < N.lxor k a.
Proof.
  intros Hl Ha Hb Hlt.
  assert (Ek : forall c, N.lxor k c = N.lxor (N.lxor l k) (N.lxor l c)).
  { intros c. rewrite (N.lxor_comm l k), N.lxor_assoc, <- (N.lxor_assoc l l c), N.lxor_nilpotent, N.lxor_0_l.
    reflexivity. }
  rewrite (Ek a), (Ek b).
  set (p := N.lxor l a) in *. set (q := N.lxor l b) in *.
  assert (Hp : p < 256) by (apply lxor_lt_256; assumption).
  assert (Hq : q < 256) by (apply lxor_lt_256; assumption).
  assert (Hu : lz8 p < 8) by (pose proof (lz8_le q); lia).
  destruct (lz8_top p Hp Hu) as [Hp1 Hp2].
  exact (byte_order (N.lxor l k) p q (7 - lz8 p) Hp1 Hp2 (lz8_below q (lz8 p) Hq Hlt Hu)).
Qed.

(* Cross-bucket ordering. a sits in a shallower bucket than b.  If k differs from
   the locus at the bit of a's bucket, a is strictly nearer to k than b; otherwise
   b is at least as near as a. *)
Lemma cross_bucket L : forall a b k,
  wf_bytes L = true -> wf_bytes a = true -> wf_bytes b = true ->
  (length L <= length a)%nat -> lzx L a < lzx L b ->
  if bit_at (xor_bytes L k) (lzx L a) then distance_cmp k a b = Lt else dle k b a.
Proof.
  unfold dle.
  induction L as [|l0 L IH]; intros [|a0 a] [|b0 b] k HL Ha Hb Hla Hlt;
    cbn [length lzx] in Hla, Hlt; try lia.
  cbn [wf_bytes forallb] in HL, Ha, Hb.
  apply andb_prop in HL as [Hl0 HL]. apply andb_prop in Ha as [Ha0 Ha]. apply andb_prop in Hb as [Hb0 Hb].
  apply N.ltb_lt in Hl0, Ha0, Hb0.
  destruct k as [|k0 k].
  { cbn [xor_bytes]. rewrite bit_at_nil. discriminate. }
  cbn [lzx xor_bytes distance_cmp].
  pose proof (lz8_le (N.lxor l0 a0)) as Hpl. pose proof (lz8_le (N.lxor l0 b0)) as Hql.
  destruct (N.ltb_spec (lz8 (N.lxor l0 a0)) 8) as [Hp8|Hp8].
  - (* the first difference of a is inside this byte *)
    rewrite bit_at_head by exact Hp8.
    assert (Hlt' : lz8 (N.lxor l0 a0) < lz8 (N.lxor l0 b0))
      by (destruct (N.ltb_spec (lz8 (N.lxor l0 b0)) 8); lia).
    pose proof (byte_cross l0 a0 b0 k0 Hl0 Ha0 Hb0 Hlt') as B.
    destruct (N.testbit (N.lxor l0 k0) (7 - lz8 (N.lxor l0 a0))).
    + apply N.ltb_lt in B. rewrite B. reflexivity.
    + apply N.ltb_lt in B. rewrite B. discriminate.
  - (* a agrees with the locus on this byte; so does b *)
    destruct (N.ltb_spec (lz8 (N.lxor l0 b0)) 8); [lia|].
    assert (Hab : a0 = b0).
    { transitivity l0; [symmetry|]; apply N.lxor_eq, lz8_8; lia. }
    subst b0. rewrite N.ltb_irrefl.
    rewrite bit_at_cons, N.add_comm, N.add_sub by lia.
    apply IH; try assumption; lia.
Qed.

Section Sorting.
  Context {E : Type} (key : E -> bytes).

  (* Model.Cache.insert_sorted is insert_by e_key and Model.Dht.insert_node is
     insert_by n_id, both by conversion *)
  Fixpoint insert_by (k : bytes) (e : E) (l : list E) : list E :=
    match l with
    | [] => [e]
    | h :: t => if distance_lt k (key e) (key h) then e :: l else h :: insert_by k e t
    end.

  Definition sort_by (k : bytes) (l : list E) : list E := fold_right (insert_by k) [] l.

  Definition le_k (k : bytes) (x y : E) : Prop := dle k (key x) (key y).

  Lemma insert_by_perm k e l : Permutation (insert_by k e l) (e :: l).
  Proof.
    induction l as [|h t IH]; cbn [insert_by]; [reflexivity|].
    destruct (distance_lt k (key e) (key h)); [reflexivity|].
    rewrite IH. apply perm_swap.
  Qed.

  Lemma insert_by_sorted k e l :
    StronglySorted (le_k k) l -> StronglySorted (le_k k) (insert_by k e l).
  Proof.
    induction l as [|h t IH]; intros Hs; cbn [insert_by].
    - constructor; constructor.
    - inversion Hs as [|? ? Hst Hall]; subst.
      destruct (distance_lt k (key e) (key h)) eqn:Hc.
      + assert (Heh : le_k k e h) by exact (dlt_dle _ _ _ Hc).
        constructor; [assumption|]. constructor; [exact Heh|].
        eapply Forall_impl; [|exact Hall]. intros y Hy. exact (dle_trans _ _ _ _ Heh Hy).
      + constructor; [now apply IH|].
        eapply Permutation_Forall; [symmetry; apply insert_by_perm|].
        constructor; [|assumption]. apply dlt_false_dle. exact Hc.
  Qed.

  Lemma sort_by_perm k l : Permutation (sort_by k l) l.
  Proof.
    induction l as [|e l IH]; cbn [sort_by fold_right]; [reflexivity|].
    rewrite insert_by_perm. now constructor.
  Qed.

  Lemma sort_by_sorted k l : StronglySorted (le_k k) (sort_by k l).
  Proof.
    induction l as [|e l IH]; cbn [sort_by fold_right]; [constructor|].
    now apply insert_by_sorted.
  Qed.
End Sorting.
