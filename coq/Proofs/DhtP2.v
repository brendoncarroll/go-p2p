(* C20: termination for any callback that asks at most once per call, over peer
   ids of a fixed size (the finite universe is built here); then the four
   iterative operations.  Each of their callbacks asks at most once per call
   (DhtP.asks_once), which gives termination and the ask-log part of its result;
   what is left per operation is an invariant of the counters and of Closest. *)
From P2PV Require Import Lib.Base Model.Distance Model.Dht Proofs.BaseP Proofs.DhtP.
From Coq Require Import Lia ZifyBool ZifyN ZifyNat.
Open Scope N_scope.

(* the finite universe of real peer ids: all byte strings of a fixed length *)
Definition all_bytes : list N := map N.of_nat (seq 0 256).
Fixpoint strings (n : nat) : list bytes :=
  match n with
  | O => [[]]
  | Datatypes.S n' => flat_map (fun b => map (cons b) (strings n')) all_bytes
  end.

Lemma all_bytes_in b : b < 256 -> In b all_bytes.
Proof.
  intros H. unfold all_bytes. apply in_map_iff. exists (N.to_nat b). split; [lia|]. apply in_seq. lia.
Qed.

Lemma strings_in n : forall b, wf_bytes b = true -> length b = n -> In b (strings n).
Proof.
  induction n as [|n IH]; intros b Hw Hl.
  - destruct b; [now left|discriminate].
  - destruct b as [|x b]; [discriminate|]. cbn [wf_bytes forallb] in Hw. apply andb_prop in Hw as [Hx Hw].
    cbn [strings]. apply in_flat_map. exists x. split; [apply all_bytes_in; unfold wf_byte in Hx; lia|].
    apply in_map. apply IH; [exact Hw|]. now injection Hl.
Qed.

(* responders and initial peers carry well-formed ids of the peer-id size *)
Definition resp_wf (len : nat) (resp : responder) : Prop :=
  forall i nd x, In x (a_nodes (resp i nd)) -> wf_bytes (n_id x) = true /\ length (n_id x) = len.
Definition nodes_wf (len : nat) (l : list node) : Prop :=
  forall x, In x l -> wf_bytes (n_id x) = true /\ length (n_id x) = len.

(* termination for EVERY responder over peer ids, for any callback that asks at
   most once per call and hands back only peers which that answer named *)
Theorem asks_once_terminates {S} resp (lg : S -> asklog) fn len initial key n (st0 : S) :
  asks_once resp lg fn -> resp_wf len resp -> nodes_wf len initial ->
  exists fuel, dht_iterate fn fuel initial key n st0 <> None.
Proof.
  intros Hfn Hr Hi. apply dht_iterate_terminates with (U := strings len).
  - apply (asks_once_answers_in resp lg fn Hfn).
    intros i nd x Hx. destruct (Hr i nd x Hx). now apply strings_in.
  - intros x Hx. destruct (Hi x Hx). now apply strings_in.
Qed.

Lemma find_asks_once resp target validate : asks_once resp f_log (find_fn resp target validate).
Proof.
  intros st nd st' r. unfold find_fn, ask.
  destruct (bytes_eqb _ target); [intros [= <- <-]; now left|].
  destruct (a_ok _); intros [= <- <-]; right.
  all: split; [reflexivity|]; intros news [= <-].
  - apply incl_filter.
  - apply incl_nil_l.
Qed.

(* Closest is updated before the target test, so it ranges over all visited nodes *)
Definition find_inv (target : bytes) (st : find_st) (visited : list bytes) : Prop :=
  nearest_opt target (option_map n_id (f_closest st)) visited /\
  f_contacted st = lenN (filter (fun p => a_ok (snd p)) (f_log st)).

Lemma find_step resp target validate st nd visited st' r :
  find_inv target st visited -> find_fn resp target validate st nd = (st', r) ->
  find_inv target st' (n_id nd :: visited).
Proof.
  intros [Hn Hcnt]. unfold find_fn, ask.
  set (closest := match f_closest st with
                  | None => nd
                  | Some c => if distance_lt target (n_id nd) (n_id c) then nd else c end).
  assert (Hn' : is_nearest target (n_id closest) (n_id nd :: visited)).
  { pose proof (nearest_opt_add target _ _ (n_id nd) (n_id nd :: visited) (fun v => iff_refl _) Hn) as H.
    unfold closest. destruct (f_closest st) as [c|]; cbn [option_map] in H.
    - destruct (distance_lt target (n_id nd) (n_id c)); exact H.
    - exact H. }
  destruct (bytes_eqb (n_id closest) target); [intros [= <- <-]; now split|].
  set (a := resp (lenN (f_log st)) nd).
  destruct (a_ok a) eqn:Eok; intros [= <- <-].
  all: split; [exact Hn'|].
  all: cbn [f_contacted f_log]; rewrite filter_snoc; cbn [snd]; rewrite Eok.
  - now rewrite lenN_app, Hcnt.
  - now rewrite app_nil_r.
Qed.

Theorem find_result fuel resp initial target validate st vis :
  dht_find fuel resp initial target validate = Some (Ok (st, vis)) ->
  log_ok resp (f_log st) vis /\ find_inv target st vis.
Proof.
  apply (asks_once_result resp f_log _ (find_asks_once resp target validate) (find_inv target)).
  - reflexivity.
  - split; reflexivity.
  - intros *. apply find_step.
Qed.

Lemma find_err_false target st :
  find_err target st = false <-> exists c, f_closest st = Some c /\ n_id c = target.
Proof.
  unfold find_err. destruct (f_closest st) as [c|].
  - destruct (bytes_eqb_spec (n_id c) target) as [E|E]; cbn [negb].
    + split; [intros _; now exists c|reflexivity].
    + split; [discriminate|]. intros (c' & Hc & E'). congruence.
  - split; [discriminate|]. intros (c & [=] & _).
Qed.

Lemma join_asks_once resp addpeer : asks_once resp j_log (join_fn resp addpeer).
Proof.
  intros st nd st' r. unfold join_fn, ask.
  destruct (a_ok _); intros [= <- <-]; right.
  all: split; [reflexivity|]; intros news [= <-].
  - apply incl_refl.
  - apply incl_nil_l.
Qed.

(* asked = rev visited: Join's callback never stops the iteration, so every node
   visited is asked, in visiting order *)
Definition join_inv (addpeer : node -> bool) (st : join_st) (visited : list bytes) : Prop :=
  asked (j_log st) = rev visited /\ j_added st = lenN (filter addpeer (map fst (j_log st))).

Lemma join_step resp addpeer st nd visited st' r :
  join_inv addpeer st visited -> join_fn resp addpeer st nd = (st', r) ->
  join_inv addpeer st' (n_id nd :: visited).
Proof.
  intros [Hall Hadd]. unfold join_fn, ask. set (a := resp (lenN (j_log st)) nd).
  (* the new state is the same whether or not the node answered *)
  assert (H : join_inv addpeer (mkJoin (if addpeer nd then j_added st + 1 else j_added st)
                                       (j_log st ++ [(nd, a)])) (n_id nd :: visited)).
  { split; cbn [j_log j_added].
    - now rewrite asked_snoc, Hall.
    - rewrite map_app. cbn [map fst]. rewrite filter_snoc, lenN_app, <- Hadd.
      destruct (addpeer nd); [reflexivity|apply eq_sym, N.add_0_r]. }
  destruct (a_ok a); intros [= <- <-]; exact H.
Qed.

Theorem join_result fuel resp initial target addpeer st vis :
  dht_join fuel resp initial target addpeer = Some (Ok (st, vis)) ->
  log_ok resp (j_log st) vis /\ join_inv addpeer st vis.
Proof.
  apply (asks_once_result resp j_log _ (join_asks_once resp addpeer) (join_inv addpeer)).
  - reflexivity.
  - split; reflexivity.
  - intros *. apply join_step.
Qed.

Lemma get_asks_once resp key validate : asks_once resp g_log (get_fn resp key validate).
Proof.
  intros st nd st' r. unfold get_fn, ask.
  destruct (match g_from st with Some f => distance_lt key f (n_id nd) | None => false end);
    [intros [= <- <-]; now left|].
  destruct (a_ok _); cbn [negb]; intros [= <- <-]; right.
  all: split; [reflexivity|]; intros news [= <-].
  - apply incl_refl.
  - apply incl_nil_l.
Qed.

(* Get stops early once a holder nearer than the next node has answered, so its
   invariant speaks of the log alone; a reported value is backed by a log entry *)
Definition get_inv (key : bytes) (validate : bytes -> bool) (st : get_st) : Prop :=
  g_contacted st = lenN (g_log st) /\
  g_responded st = lenN (responders (g_log st)) /\
  nearest_opt key (g_closest st) (responders (g_log st)) /\
  (g_from st = None -> g_value st = None) /\
  (forall f, g_from st = Some f ->
     exists nd a v, In (nd, a) (g_log st) /\ n_id nd = f /\ a_ok a = true /\
                    a_value a = Some v /\ validate v = true /\ g_value st = Some v).

Lemma get_step resp key validate st nd st' r :
  get_inv key validate st -> get_fn resp key validate st nd = (st', r) -> get_inv key validate st'.
Proof.
  intros Hinv. unfold get_fn, ask.
  destruct (match g_from st with Some f => distance_lt key f (n_id nd) | None => false end);
    [intros [= <- <-]; exact Hinv|].
  destruct Hinv as (Hc & Hr & Hn & Hfn & Hfs). set (a := resp (lenN (g_log st)) nd).
  (* an earlier report stays backed by the longer log *)
  assert (Hfs' : forall f, g_from st = Some f ->
            exists nd0 a0 v, In (nd0, a0) (g_log st ++ [(nd, a)]) /\ n_id nd0 = f /\ a_ok a0 = true /\
                             a_value a0 = Some v /\ validate v = true /\ g_value st = Some v).
  { intros f Hf. destruct (Hfs f Hf) as (nd0 & a0 & v & Hin & Hrest).
    exists nd0, a0, v. split; [apply in_or_app; now left|exact Hrest]. }
  pose proof (nearest_opt_add key _ _ (n_id nd) _ (in_snoc _ _) Hn) as Hn'.
  destruct (a_ok a) eqn:Eok; cbn [negb]; intros [= <- <-].
  (* each counter is the old one plus the length of what its list has gained *)
  all: unfold get_inv; cbn [g_contacted g_responded g_closest g_from g_value g_log].
  all: rewrite responders_snoc, Eok, ?app_nil_r, !lenN_app, <- Hc, <- Hr.
  - split; [reflexivity|]. split; [reflexivity|]. split; [exact Hn'|].
    destruct (match a_value a with Some v => validate v | None => false end) eqn:Ehit.
    + destruct (a_value a) as [v|] eqn:Eval; [|discriminate].
      split; [discriminate|]. intros f [= <-].
      exists nd, a, v. split; [apply in_snoc; now left|]. now repeat split.
    + split; [exact Hfn|exact Hfs'].
  - split; [reflexivity|]. split; [reflexivity|]. split; [exact Hn|]. split; [exact Hfn|exact Hfs'].
Qed.

Theorem get_result fuel resp initial key validate st vis :
  dht_get fuel resp initial key validate = Some (Ok (st, vis)) ->
  log_ok resp (g_log st) vis /\ get_inv key validate st.
Proof.
  apply (asks_once_result resp g_log _ (get_asks_once resp key validate) (fun st _ => get_inv key validate st)).
  - reflexivity.
  - now repeat split.
  - intros st0 nd _ st' r. apply get_step.
Qed.

Lemma put_asks_once resp key : asks_once resp p_log (put_fn resp key).
Proof.
  intros st nd st' r. unfold put_fn, ask.
  destruct (a_ok _); cbn [negb]; [destruct (a_accept _)|]; intros [= <- <-]; right.
  all: split; [reflexivity|]; intros news [= <-].
  - apply incl_refl.
  - apply incl_refl.
  - apply incl_nil_l.
Qed.

(* Put's Closest ranges over the nodes that accepted the value *)
Definition put_inv (key : bytes) (st : put_st) : Prop :=
  p_contacted st = lenN (p_log st) /\
  p_responded st = lenN (responders (p_log st)) /\
  p_accepted st = lenN (accepters (p_log st)) /\
  nearest_opt key (p_closest st) (accepters (p_log st)).

Lemma put_step resp key st nd st' r :
  put_inv key st -> put_fn resp key st nd = (st', r) -> put_inv key st'.
Proof.
  intros (Hc & Hr & Ha & Hn). unfold put_fn, ask. set (a := resp (lenN (p_log st)) nd).
  pose proof (nearest_opt_add key _ _ (n_id nd) _ (in_snoc _ _) Hn) as Hn'.
  destruct (a_ok a) eqn:Eok; cbn [negb]; [destruct (a_accept a) eqn:Eacc|]; intros [= <- <-].
  (* each counter is the old one plus the length of what its list has gained *)
  all: unfold put_inv; cbn [p_contacted p_responded p_accepted p_closest p_log].
  all: rewrite responders_snoc, accepters_snoc, Eok, ?Eacc; cbn [andb].
  all: rewrite ?app_nil_r, !lenN_app, <- Hc, <- Hr, <- Ha.
  - split; [reflexivity|]. split; [reflexivity|]. split; [reflexivity|exact Hn'].
  - split; [reflexivity|]. split; [reflexivity|]. split; [reflexivity|exact Hn].
  - split; [reflexivity|]. split; [reflexivity|]. split; [reflexivity|exact Hn].
Qed.

Theorem put_result fuel resp initial key st vis :
  dht_put fuel resp initial key = Some (Ok (st, vis)) ->
  log_ok resp (p_log st) vis /\ put_inv key st.
Proof.
  apply (asks_once_result resp p_log _ (put_asks_once resp key) (fun st _ => put_inv key st)).
  - reflexivity.
  - now repeat split.
  - intros st0 nd _ st' r. apply put_step.
Qed.

(* no panic, whatever the size of Initial (empty included) *)
Theorem no_panic fuel resp initial key s :
  (forall validate, dht_find fuel resp initial key validate <> Some (Panic s)) /\
  (forall addpeer, dht_join fuel resp initial key addpeer <> Some (Panic s)) /\
  (forall validate, dht_get fuel resp initial key validate <> Some (Panic s)) /\
  dht_put fuel resp initial key <> Some (Panic s).
Proof.
  split; [|split; [|split]]; intros; apply dht_iterate_no_panic; intros Hne.
  - unfold FIND_WIDTH. lia.
  - apply lenN_pos in Hne. lia.
  - unfold GET_WIDTH. lia.
  - apply lenN_pos in Hne. apply Z.div_le_lower_bound; lia.
Qed.
