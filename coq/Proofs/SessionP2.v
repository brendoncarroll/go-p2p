(* C03 / C02: the invariant cache_inv, under which no API call fails (sstep_total), and whole
   histories of one session, for every input sequence (srun_inv, send_counters_increasing).
   The per-call facts about gate_inv and sender_inv come from SessionP. *)
From P2PV Require Import Lib.Base Model.Handshake Model.Session Proofs.BaseP Proofs.SessionP.
From Coq Require Import Lia ZifyBool ZifyN ZifyNat.
Open Scope N_scope.

(* the handshake-message cache is filled when the state asks for it *)
Definition cache_inv (s : ssess) : Prop :=
  length (x_cache s) = 4%nat /\
  (x_init s = true -> xcached s 0 <> None /\ (x_hs s = 2 -> xcached s 2 <> None)) /\
  (x_init s = false -> (x_hs s = 1 -> xcached s 1 <> None) /\ (x_hs s = 3 -> xcached s 3 <> None)).

Lemma set_cache_len l i w : length (set_cache l i w) = length l.
Proof. revert i; induction l as [|h t IH]; intros [|i]; cbn [set_cache length]; auto. Qed.

Lemma set_cache_nth l i w j : (i < length l)%nat ->
  nth j (set_cache l i w) None = if Nat.eqb j i then Some w else nth j l None.
Proof.
  revert i j; induction l as [|h t IH]; intros i j Hi; [cbn in Hi; lia|].
  destruct i as [|i], j as [|j]; cbn [set_cache nth Nat.eqb]; try reflexivity. apply IH. cbn in Hi. lia.
Qed.

Lemma cache_new i me e ts : cache_inv (new_ssess i me e ts).
Proof. unfold cache_inv, xcached, new_ssess. destruct i; cbn; repeat split; try discriminate; intros; lia. Qed.

Lemma effect_cache s w s' okb : cache_inv s -> hs_effect s w s' okb -> cache_inv s'.
Proof.
  intros (Hl & Hi1 & Hi0) He.
  destruct He as [okb|n|e ts kc sg k Hw Hi Hh Hkc Hsg|e c k Hw Hi Hh Hc|h c r Hw Hi Hh Hr Hc|h c pt Hw Hi Hh Hc];
    unfold cache_inv, xcached, spent, upd in *; cbn [x_cache x_init x_hs]; rewrite ?set_cache_len.
  - auto.
  - auto.
  (* a message was accepted: the length stays, the clause of the other role is void, and the
     clause of this role asks for the slot of the new stage only *)
  - (* InitHello: the responder, now at stage 1, has put its RespHello in slot 1 *)
    rewrite Hi. split; [exact Hl|]. split; [discriminate|intros _].
    rewrite set_cache_nth by lia. cbn.
    split; [discriminate|intros; lia].
  - (* RespHello: the initiator, now at stage 2, has put its InitDone in slot 2; slot 0 stays *)
    rewrite Hi. split; [exact Hl|]. split; [intros _|discriminate].
    rewrite !set_cache_nth by lia. cbn.
    split; [now apply Hi1|discriminate].
  - (* InitDone: the responder, now at stage 3, has put its RespDone in slot 3 *)
    rewrite Hi. split; [exact Hl|]. split; [discriminate|intros _].
    rewrite !set_cache_nth by lia. cbn.
    split; [intros; lia|discriminate].
  - (* RespDone: the initiator is at stage 4, which asks for slot 0 only *)
    rewrite Hi. split; [exact Hl|]. split; [intros _|discriminate].
    split; [now apply Hi1|intros; lia].
Qed.

Lemma xwrite_handshake_ok s : cache_inv s -> exists r, xwrite_handshake s = Ok r.
Proof.
  intros (_ & Hi1 & Hi0). unfold xwrite_handshake.
  assert (Get : forall i, xcached s i <> None ->
            exists r, match xcached s i with Some w => Ok (Some w) | None => Panic P_WRITE_HS end = Ok r).
  { intros i H. destruct (xcached s i); [eauto|contradiction]. }
  destruct (4 <=? x_hs s); [eauto|].
  destruct (x_init s); cbn [negb andb].
  - destruct (Hi1 eq_refl) as [H0 H2].
    destruct (N.eqb_spec (x_hs s) 0); [auto|]. destruct (N.eqb_spec (x_hs s) 2); [auto|eauto].
  - destruct (Hi0 eq_refl) as [H1 H3].
    destruct (N.eqb_spec (x_hs s) 1); [auto|]. destruct (N.eqb_spec (x_hs s) 3); [auto|eauto].
Qed.

Lemma sstep_cache s i s' o w : cache_inv s -> sstep s i = Ok (s', o, w) -> cache_inv s'.
Proof.
  intros Hc Hstep%sstep_effect.
  destruct Hstep as [i o Ho|wi s' okb o He Ho|h pt l Hh Hcr Hl|pt Hlim Hcs].
  - exact Hc.
  - exact (effect_cache _ _ _ _ Hc He).
  - (* stage 8 asks for no cached message *)
    destruct Hc as (Hl' & Hi1 & Hi0). unfold cache_inv, xcached in *. cbn [accepted x_cache x_init x_hs].
    split; [assumption|]. split; intros Hi; [split; [apply Hi1; assumption|intros; lia]|split; intros; lia].
  - exact Hc.
Qed.

Lemma sstep_total s i : cache_inv s -> exists s' o w, sstep s i = Ok (s', o, w).
Proof.
  intros Hc. pose proof (sstep_spec s i) as S.
  destruct (sstep s i) as [[[s' o] w]|e|p]; [eauto|..].
  (* it could only fail to write its reply; but the state after the read has its cache *)
  all: destruct S as (wi & s1 & _ & He & Hn);
    apply (effect_cache _ _ _ _ Hc) in He;
    apply xwrite_handshake_ok in He as [r Hr];
    destruct (Hn r Hr).
Qed.

Definition event := (input * option xoutcome * option wire)%type.

Fixpoint srun (s : ssess) (ins : list input) : result (ssess * list event) :=
  match ins with
  | [] => Ok (s, [])
  | i :: t =>
      match sstep s i with
      | Ok (s', o, w) => match srun s' t with
                         | Ok (s'', log) => Ok (s'', (i, o, w) :: log)
                         | Err e => Err e | Panic p => Panic p end
      | Err e => Err e | Panic p => Panic p
      end
  end.

Definition all_inv (s : ssess) : Prop := gate_inv s /\ sender_inv s /\ cache_inv s.

Lemma all_new i me e ts : all_inv (new_ssess i me e ts).
Proof. split; [apply gate_new|split; [apply sender_new|apply cache_new]]. Qed.

(* counters accepted as application data *)
Definition app_counter (ev : event) : list N :=
  match ev with
  | (InDeliver (WC h _), Some (XApp _), _) => [h]
  | _ => []
  end.

Lemma app_counter_In h i o w : In h (app_counter (i, o, w)) ->
  exists c pt, i = InDeliver (WC h c) /\ o = Some (XApp pt).
Proof.
  destruct i as [[| |h' c|]|]; try easy. destruct o as [[pt| | |]|]; try easy.
  intros [<-|[]]. eauto.
Qed.

Lemma app_counter_nodup ev : NoDup (app_counter ev).
Proof.
  destruct ev as [[[[| |h c|]|] [[pt| | |]|]] w]; cbn; repeat constructor. easy.
Qed.

(* no input sequence makes a session fail, and along every history: *)
Theorem srun_inv ins : forall s, all_inv s ->
  exists s' log, srun s ins = Ok (s', log) /\
    all_inv s' /\
    (* at most once: every counter accepted in this history is new, and stays rejected afterwards *)
    NoDup (flat_map app_counter log) /\
    (forall h, In h (flat_map app_counter log) -> memN h (x_seen s) = false /\ memN h (x_seen s') = true) /\
    (forall c, memN c (x_seen s) = true -> memN c (x_seen s') = true) /\
    (* the authenticated peer never changes once the session is usable *)
    (usable s = true -> x_remote s' = x_remote s /\ binding s' = binding s /\ usable s' = true).
Proof.
  induction ins as [|i t IH]; intros s (Hg & Hs & Hc); cbn [srun].
  - exists s, []. split; [reflexivity|]. cbn [flat_map].
    split; [exact (conj Hg (conj Hs Hc))|]. split; [constructor|]. split; [intros h []|].
    split; [intros c Hm; exact Hm|]. intros Hu. split; [reflexivity|split; [reflexivity|exact Hu]].
  - destruct (sstep_total s i Hc) as (s1 & o & w & Es). rewrite Es.
    pose proof (sstep_inv s i s1 o w Hg Hs Es) as K.
    pose proof (sstep_cache s i s1 o w Hc Es) as C1.
    destruct (IH s1 (conj (so_gate _ _ _ _ K) (conj (so_sender _ _ _ _ K) C1)))
      as (s2 & log & -> & Hall & Hnd & Happ & Hseen & Hus).
    exists s2, ((i, o, w) :: log). split; [reflexivity|]. split; [exact Hall|].
    assert (Hhead : forall h, In h (app_counter (i, o, w)) -> memN h (x_seen s) = false /\ memN h (x_seen s1) = true).
    { intros h (c & pt & -> & ->)%app_counter_In.
      destruct (so_app _ _ _ _ K pt eq_refl) as (_ & h0 & [= <-] & _ & Hns & Hs1). auto. }
    split; [|split; [|split]].
    + cbn [flat_map]. apply NoDup_app_intro; [apply app_counter_nodup|exact Hnd|].
      intros h Hh Hh'. destruct (Hhead h Hh) as [_ H1]. destruct (Happ h Hh') as [H0 _]. congruence.
    + intros h Hh. cbn [flat_map] in Hh. apply in_app_or in Hh as [Hh|Hh].
      * destruct (Hhead h Hh) as [A B]. split; [exact A|]. now apply Hseen.
      * destruct (Happ h Hh) as [A B]. split; [|exact B].
        destruct (memN h (x_seen s)) eqn:E; [|reflexivity]. rewrite (so_seen _ _ _ _ K h E) in A. discriminate.
    + intros c Hm. apply Hseen, (so_seen _ _ _ _ K), Hm.
    + intros Hu. destruct (so_stable _ _ _ _ K Hu) as (R1 & B1 & Hu1). destruct (Hus Hu1) as (R2 & B2 & Hu2).
      split; [congruence|]. split; [congruence|exact Hu2].
Qed.

(* the AEAD counter of every ciphertext produced by Send in this history *)
Definition send_counter (ev : event) : list N :=
  match ev with
  | (InSend _, _, Some (WC _ (TAead _ c _))) => [c]
  | _ => []
  end.

(* a session that can send stays so and keeps its nonce, except that Send uses the nonce and steps it *)
Lemma sender_step s i s' o w : sstep s i = Ok (s', o, w) -> xcan_send s = true ->
  xcan_send s' = true /\
  (send_counter (i, o, w) = [] /\ x_nonce s' = x_nonce s \/
   send_counter (i, o, w) = [x_nonce s] /\ x_nonce s' = x_nonce s + 1).
Proof.
  intros Hstep%sstep_effect Hcs.
  destruct Hstep as [i o Ho|wi s' okb o He Ho|h pt l Hh Hcr Hl|pt Hlim Hcs'].
  - split; [exact Hcs|left]. split; [now destruct i|reflexivity].
  - (* No handshake message moves a session that can already send: an accepted one needs stage 0 or 1
       (responder) or 0 or 2 (initiator), below the stage from which that role can send, against Hcs;
       otherwise the state is s or spent s n, with the same stage and nonce.  A Deliver carries no send counter. *)
    unfold xcan_send in *.
    destruct He as [okb|n|e ts kc sg k Hw Hi Hh Hkc Hsg|e c k Hw Hi Hh Hc|h c r Hw Hi Hh Hr Hc|h c pt Hw Hi Hh Hc].
    1-2: auto.
    all: rewrite Hi, Hh in Hcs; discriminate.
  - (* data: stage 8; the nonce is reset only for an initiator at stage 2, which cannot send *)
    unfold xcan_send in *. cbn [accepted x_init x_hs x_nonce].
    split; [now destruct (x_init s)|left]. split; [reflexivity|].
    destruct (x_init s); [|reflexivity]. destruct (N.eqb_spec (x_hs s) 2) as [E|]; [|reflexivity].
    rewrite E in Hcs. discriminate.
  - split; [exact Hcs|right]. split; reflexivity.
Qed.

Fixpoint increasing_from (lo : N) (l : list N) : Prop :=
  match l with [] => True | c :: t => lo <= c /\ increasing_from (c + 1) t end.

(* the counters a session uses for Send in one history are strictly increasing, from its nonce on:
   it never uses one twice *)
Theorem send_counters_increasing ins : forall s s' log, srun s ins = Ok (s', log) ->
  xcan_send s = true -> increasing_from (x_nonce s) (flat_map send_counter log).
Proof.
  induction ins as [|i t IH]; intros s s' log Hr Hcs; cbn [srun] in Hr.
  - injection Hr as <- <-. exact I.
  - destruct (sstep s i) as [[[s1 o] w]|e|p] eqn:Es; try discriminate.
    destruct (srun s1 t) as [[s2 log1]|e|p] eqn:Er; try discriminate. injection Hr as <- <-.
    destruct (sender_step s i s1 o w Es Hcs) as [Hcs1 Hn].
    pose proof (IH s1 s2 log1 Er Hcs1) as Hinc.
    cbn [flat_map]. destruct Hn as [[-> Hn]|[-> Hn]]; rewrite Hn in Hinc; cbn [app increasing_from].
    + exact Hinc.
    + split; [apply N.le_refl|exact Hinc].
Qed.
