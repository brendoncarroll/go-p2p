(* C16: every address a swarm produces survives marshal and parse, at every nesting. *)
From P2PV Require Import Lib.Base Lib.Base64 Model.Addr Proofs.BaseP Proofs.Base64P.
From Coq Require Import Lia ZifyBool ZifyN ZifyNat.
Open Scope N_scope.

Lemma dec_value_acc_app a b acc : dec_value_acc (a ++ b) acc = dec_value_acc b (dec_value_acc a acc).
Proof. revert acc; induction a as [|x a IH]; intros acc; cbn [app dec_value_acc]; [reflexivity|apply IH]. Qed.

Lemma dec_fuel_nonempty fuel n : dec_fuel fuel n <> [].
Proof.
  destruct fuel; cbn [dec_fuel]; [discriminate|]. destruct (n <? 10); [discriminate|].
  intros E. apply app_eq_nil in E as [_ E]. discriminate.
Qed.

(* The text grows at its right end, so the value is read from accumulator 0 at every level. *)
Lemma dec_fuel_spec fuel : forall n, n < 2 ^ N.of_nat fuel ->
  forallb is_digit (dec_fuel fuel n) = true /\ dec_value_acc (dec_fuel fuel n) 0 = n /\
  (n <> 0 -> hd 0 (dec_fuel fuel n) <> 48).
Proof.
  induction fuel as [|f IH]; intros n Hn.
  - assert (n = 0) by (cbn in Hn; lia). now subst n.
  - cbn [dec_fuel]. destruct (N.ltb_spec n 10) as [Hlt|Hge].
    + cbn [forallb dec_value_acc hd]. unfold is_digit. lia.
    + rewrite Nat2N.inj_succ, N.pow_succ_r' in Hn.
      destruct (IH (n / 10) ltac:(lia)) as (Hdig & Hval & Hhd).
      rewrite forallb_app, dec_value_acc_app, Hdig, Hval. cbn [forallb dec_value_acc].
      split; [unfold is_digit; lia|]. split; [lia|]. intros _.
      pose proof (dec_fuel_nonempty f (n / 10)) as Hne.
      destruct (dec_fuel f (n / 10)); [contradiction|]. apply Hhd. lia.
Qed.

Lemma dec_digits n : forallb is_digit (dec n) = true.
Proof. apply dec_fuel_spec, size_nat_bound. Qed.

Lemma dec_nonempty n : dec n <> [].
Proof. apply dec_fuel_nonempty. Qed.

Theorem undec_dec n : undec (dec n) = Some n.
Proof.
  destruct (N.eq_dec n 0) as [->|Hn]; [reflexivity|].
  pose proof (dec_nonempty n) as Hne.
  destruct (dec_fuel_spec _ n (size_nat_bound n)) as (Hdig & Hval & Hhd). fold (dec n) in *.
  unfold undec. destruct (dec n) as [|c r]; [contradiction|].
  rewrite Hdig, Hval, (proj2 (N.eqb_neq c 48) (Hhd Hn)). reflexivity.
Qed.

Lemma has_app c a b : has c (a ++ b) = has c a || has c b.
Proof. induction a as [|x a IH]; cbn [app has]; [reflexivity|]. now rewrite IH, Bool.orb_assoc. Qed.

Lemma forallb_avoid (p : N -> bool) c l : forallb p l = true -> p c = false -> has c l = false.
Proof.
  intros Hl Hc. induction l as [|x l IH]; cbn [forallb has] in *; [reflexivity|].
  apply andb_prop in Hl as [Hx Hl]. rewrite (IH Hl), Bool.orb_false_r.
  destruct (N.eqb_spec x c) as [->|]; congruence.
Qed.

Lemma dec_avoids c n : is_digit c = false -> has c (dec n) = false.
Proof. apply forallb_avoid, dec_digits. Qed.

Lemma encode_avoid c b : wf_bytes b = true -> index_of c = None -> has c (encode b) = false.
Proof.
  intros Hw Hc. apply wf_all_lt, enc_sextets_lt64 in Hw. unfold encode.
  induction (enc_sextets b) as [|x s IH]; cbn [all_lt map has] in *; [reflexivity|].
  destruct Hw as [Hx Hs]. rewrite (IH Hs), Bool.orb_false_r.
  destruct (N.eqb_spec (alpha x) c) as [E|]; [|reflexivity].
  rewrite <- E, index_alpha in Hc by exact Hx. discriminate.
Qed.

Lemma split_first_app c a b : has c a = false -> split_first c (a ++ [c] ++ b) = Some (a, b).
Proof.
  induction a as [|x a IH]; cbn [app split_first has]; intros H.
  - now rewrite N.eqb_refl.
  - apply Bool.orb_false_iff in H as [Hx Ha]. specialize (IH Ha). cbn [app] in IH. now rewrite Hx, IH.
Qed.

Lemma split_last_none c l : has c l = false -> split_last c l = None.
Proof.
  induction l as [|x t IH]; cbn [has split_last]; intros H; [reflexivity|].
  apply Bool.orb_false_iff in H as [Hx Ht]. now rewrite (IH Ht), Hx.
Qed.

Lemma split_last_app c a b : has c b = false -> split_last c (a ++ [c] ++ b) = Some (a, b).
Proof.
  intros Hb. induction a as [|x a IH]; cbn [app split_last] in *.
  - now rewrite (split_last_none c b Hb), N.eqb_refl.
  - now rewrite IH.
Qed.

(* A match on a character literal is a tree of matches on the bits of its scrutinee; for a
   variable scrutinee it reduces only once the bits are known. A literal in a pattern cannot be
   abstracted, hence one lemma for ':' and one for '['. *)
Lemma match58 {A} c (a b : A) : c <> 58 -> match c with 58 => a | _ => b end = b.
Proof.
  intros H. destruct c as [|p]; [reflexivity|].
  repeat (destruct p as [p|p|]; try reflexivity). contradiction.
Qed.

Lemma match91 {A} c (a b : A) : c <> 91 -> match c with 91 => a | _ => b end = b.
Proof.
  intros H. destruct c as [|p]; [reflexivity|].
  repeat (destruct p as [p|p|]; try reflexivity). contradiction.
Qed.

Lemma split_scheme_cons x t : hd 0 t <> 58 ->
  split_scheme (x :: t) =
  match split_scheme t with Some (a, b) => Some (x :: a, b) | None => None end.
Proof.
  intros H. cbn [split_scheme]. destruct t as [|y t]; [reflexivity|].
  cbv beta match. now rewrite (match58 y).
Qed.

Lemma split_scheme_app s rest : s <> [] -> has 58 s = false -> rest <> [] ->
  split_scheme (s ++ [58; 47; 47] ++ rest) = Some (s, rest).
Proof.
  intros Hs Hc Hr. induction s as [|x [|y s] IH]; [contradiction| |].
  - destruct rest; [contradiction|reflexivity].
  - cbn [has] in Hc. apply Bool.orb_false_iff in Hc as [_ Hc].
    change ((x :: ?l) ++ ?r) with (x :: l ++ r). rewrite split_scheme_cons.
    + now rewrite IH.
    + cbn [has app hd] in *. lia.
Qed.

Lemma split_host_port_plain t : hd 0 t <> 91 ->
  split_host_port t =
  match split_last 58 t with
  | Some (host, port) => if has 58 host || has 91 host || has 93 host then None else Some (host, port)
  | None => None
  end.
Proof.
  intros H. unfold split_host_port. destruct t as [|x t]; [reflexivity|]. now rewrite (match91 x).
Qed.

Section WithIP.
  Variable ipaddr : Type.
  Variable show : ipaddr -> bytes.
  Variable readip : bytes -> option ipaddr.

  (* what is assumed of netip's text codec *)
  Hypothesis ip_roundtrip : forall i, readip (show i) = Some i.
  Hypothesis ip_text : forall i, show i <> [] /\ has 10 (show i) = false /\
                                 has 91 (show i) = false /\ has 93 (show i) = false.

  Notation addr := (addr ipaddr).
  Notation marshal := (marshal ipaddr show).
  Notation parse := (parse ipaddr readip).

  (* What an address must satisfy for its text to parse back. A multiswarm scheme name is not
     empty, has no ':' (so "://" cannot occur inside it, where the shortest match of
     multiswarm's addrRe would cut it) and no newline; ports fit uint16; an sshswarm fingerprint
     is not empty and stays within the class of sshswarm's addrRe; a peer id is a p2p.PeerID,
     32 bytes. *)
  Definition wf_scheme (s : bytes) : Prop := s <> [] /\ has 58 s = false /\ has 10 s = false.

  Fixpoint wf_addr (a : addr) : Prop :=
    match a with
    | AMem _ => True
    | AUdp _ port => port < 65536
    | ASsh fp _ port => fp <> [] /\ forallb ssh_fp_char fp = true /\ port < 65536
    | AKe id inner => wf_bytes id = true /\ lenN id = PEER_ID_SIZE /\ wf_addr inner
    | AMulti scheme inner => wf_scheme scheme /\ wf_addr inner
    end.

  (* A schema is the shape of the swarm stack whose ParseAddr is called: each swarm parses its own
     layer and hands the rest to the swarm below it, a multiswarm to the one registered under the
     scheme name (assoc_first: the first of that name). fits s a says that a is an address of
     that stack. *)
  Fixpoint assoc_first (m : list (bytes * schema)) (k : bytes) : option schema :=
    match m with
    | [] => None
    | (name, sub) :: m' => if bytes_eqb name k then Some sub else assoc_first m' k
    end.

  Fixpoint fits (s : schema) (a : addr) : Prop :=
    match a, s with
    | AMem _, SMem => True
    | AUdp _ _, SUdp => True
    | ASsh _ _ _, SSsh => True
    | AKe _ inner, SKe si => fits si inner
    | AMulti scheme inner, SMulti m =>
        exists sub, assoc_first m scheme = Some sub /\ fits sub inner
    | _, _ => False
    end.

  Lemma marshal_no_newline a : wf_addr a -> has 10 (marshal a) = false.
  Proof.
    induction a as [n|ip port|fp ip port|id inner IH|scheme inner IH]; cbn [wf_addr marshal]; intros Hw.
    - now apply dec_avoids.
    - destruct (ip_text ip) as (_ & Hnl & _). unfold join_host_port.
      destruct (has 58 (show ip) || has 37 (show ip)); rewrite !has_app, Hnl, dec_avoids by reflexivity; reflexivity.
    - destruct Hw as (_ & Hfp & _). destruct (ip_text ip) as (_ & Hnl & _).
      rewrite !has_app, (forallb_avoid _ 10 fp Hfp eq_refl), Hnl, dec_avoids by reflexivity. reflexivity.
    - destruct Hw as (Hwid & _ & Hin). rewrite !has_app, (IH Hin). unfold peerid_marshal.
      now rewrite encode_avoid.
    - destruct Hw as ((_ & _ & Hnl) & Hin). rewrite !has_app, Hnl, (IH Hin). reflexivity.
  Qed.

  Lemma marshal_nonempty a : wf_addr a -> marshal a <> [].
  Proof.
    destruct a as [n|ip port|fp ip port|id inner|scheme inner]; cbn [wf_addr marshal]; intros Hw E.
    1: now apply dec_nonempty in E.
    1: { unfold join_host_port in E. destruct (ip_text ip) as (Hne & _).
         destruct (_ || _); [discriminate|]. apply app_eq_nil in E as [E _]. contradiction. }
    (* the other three end in a separator and an inner text *)
    all: apply app_eq_nil in E as [_ E]; discriminate.
  Qed.

  Lemma port16_dec p : p < 65536 -> port16 (dec p) = Some p.
  Proof. intros H. unfold port16. now rewrite undec_dec, (proj2 (N.ltb_lt p 65536) H). Qed.

  Lemma split_join ip port : split_host_port (join_host_port (show ip) (dec port)) = Some (show ip, dec port).
  Proof.
    destruct (ip_text ip) as (Hne & _ & H91 & H93). unfold join_host_port.
    destruct (has 58 (show ip) || has 37 (show ip)) eqn:Eb.
    - cbn [app split_host_port].
      change (show ip ++ 93 :: ?r) with (show ip ++ [93] ++ r).
      rewrite split_first_app by assumption.
      now rewrite H91, !dec_avoids.
    - apply Bool.orb_false_iff in Eb as [H58 _]. rewrite split_host_port_plain.
      + rewrite split_last_app by now apply dec_avoids.
        now rewrite H58, H91, H93.
      + destruct (show ip); [contradiction|]. cbn [app hd has] in *. lia.
  Qed.

  Lemma lookup_fix (m : list (bytes * schema)) scheme rest :
    (fix lookup (m : list (bytes * schema)) : option addr :=
       match m with
       | [] => None
       | (name, sub) :: m' =>
           if bytes_eqb name scheme then option_map (AMulti scheme) (parse sub rest) else lookup m'
       end) m
    = match assoc_first m scheme with
      | Some sub => option_map (AMulti scheme) (parse sub rest)
      | None => None end.
  Proof.
    induction m as [|[name sub] m IH]; [reflexivity|]. cbn [assoc_first].
    destruct (bytes_eqb name scheme); [reflexivity|exact IH].
  Qed.

  Theorem addr_roundtrip a : forall s, fits s a -> wf_addr a -> parse s (marshal a) = Some a.
  Proof.
    induction a as [n|ip port|fp ip port|id inner IH|scheme inner IH]; intros s Hf Hw;
      destruct s as [| | |si|m]; cbn [fits] in Hf; try contradiction; cbn [wf_addr] in Hw.
    - cbn [marshal parse]. now rewrite undec_dec.
    - cbn [marshal parse]. rewrite split_join, port16_dec, ip_roundtrip by assumption. reflexivity.
    - pose proof (marshal_no_newline (ASsh fp ip port) Hw) as Hnl.
      destruct Hw as (Hne & Hfp & Hp). destruct (ip_text ip) as (Hipne & _).
      cbn [marshal parse] in *. rewrite Hnl.
      rewrite split_first_app by now apply (forallb_avoid ssh_fp_char).
      rewrite Hfp, (lenN_eqb0 fp Hne). cbn [negb orb].
      rewrite split_last_app by now apply dec_avoids.
      now rewrite (lenN_eqb0 _ Hipne), port16_dec, ip_roundtrip.
    - destruct Hw as (Hwid & Hlen & Hin). cbn [marshal parse].
      rewrite split_first_app by now apply encode_avoid.
      now rewrite peerid_roundtrip, (IH si Hf Hin).
    - pose proof (marshal_no_newline (AMulti scheme inner) Hw) as Hnl.
      destruct Hw as ((Hsne & Hs58 & _) & Hin). destruct Hf as (sub & Hassoc & Hfit).
      cbn [marshal parse] in *.
      rewrite Hnl, split_scheme_app by (try assumption; now apply marshal_nonempty).
      now rewrite lookup_fix, Hassoc, (IH sub Hfit Hin).
  Qed.

  (* parsing arbitrary text fails cleanly or yields an address that marshals back
     to an equivalent form: every well-formed result is a fixed point *)
  Corollary parse_canonical s t a : parse s t = Some a -> fits s a -> wf_addr a ->
    parse s (marshal a) = Some a.
  Proof. intros _. apply addr_roundtrip. Qed.
End WithIP.
