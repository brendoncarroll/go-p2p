(* The channel (p/p2pke/channel.go): what Session.Deliver can do to a session, the
   invariant Inv (a channel only ever establishes sessions with one accepted key,
   C05) and its preservation by every operation, what expiry leaves in place, and
   the vocabulary of histories cop / cstep / ctrace that C04, C05 and C08 speak in. *)
From P2PV Require Import Lib.Base Model.Handshake Model.Channel.
From P2PV Require Proofs.HandshakeP.
From Coq Require Import Lia ZifyBool ZifyN.
Open Scope N_scope.

(* cbn is to leave the session functions folded in goals about the channel *)
Arguments write_handshake : simpl never.
Arguments with_hs : simpl never.
Arguments auth : simpl never.
Arguments validate_counter : simpl never.
Arguments upd : simpl never.

(* The states in which Session.Deliver can leave a session that accepted a message,
   and whether application data came out: one of the three handshake messages that
   advance it, a data message, or nothing new (a repeated handshake message, a replay). *)
Inductive advanced (se : csess) (w : wire) : csess -> bool -> Prop :=
| adv_same : advanced se w se false
| adv_rh : s_init (cs se) = true -> s_hs (cs se) = 0 ->
    advanced se w (mkCS (with_hs (cs se) 2 (Some 2%nat) (s_nonce (cs se))) (c_tag se) (Some (w_from w)) (Some (w_chan w))
                        (c_rank se) (c_ts se) (c_age se)) false
| adv_id : s_init (cs se) = false -> s_hs (cs se) = 1 ->
    advanced se w (upd se (with_hs (cs se) 3 (Some 3%nat) NONCE_POST_HANDSHAKE)) false
| adv_rd : s_init (cs se) = true -> s_hs (cs se) = 2 ->
    advanced se w (upd se (with_hs (cs se) 4 None NONCE_POST_HANDSHAKE)) false
| adv_data n l sn : can_receive (cs se) = true ->
    advanced se w (upd se (mkS (s_init (cs se)) 8 (s_cache (cs se)) n l sn)) true.

(* a panic can only come from writeHandshake in the state the message led to *)
Lemma sess_deliver_adv se w :
  match sess_deliver se w with
  | Ok (SOk se' a o) => advanced se w se' a
  | Panic p => exists se', advanced se w se' false /\ write_handshake (cs se') = Panic p
  | _ => True
  end.
Proof.
  set (R := fun r : result sres =>
    match r with
    | Ok (SOk se' a o) => advanced se w se' a
    | Panic p => exists se', advanced se w se' false /\ write_handshake (cs se') = Panic p
    | _ => True
    end).
  assert (Herr : R (Ok SErr)) by exact I.
  assert (Hreply : forall se2, advanced se w se2 false ->
     R (match write_handshake (cs se2) with
        | Ok r0 => Ok (SOk se2 false r0) | Err e => Err e | Panic p => Panic p end)).
  { intros se2 A. destruct (write_handshake (cs se2)) eqn:E; cbn; eauto. }
  (* a stage test that holds gives the role and the stage; the nonce part is not needed *)
  assert (Hg : forall (a : bool) x y n m, a && (x =? y) && (n =? m) = true -> a = true /\ x = y).
  { intros [] x y n m; [|discriminate]. destruct (N.eqb_spec x y); [auto|discriminate]. }
  change (R (sess_deliver se w)). unfold sess_deliver.
  destruct (expired se || (MAX_NONCE <=? s_nonce (cs se))); [exact Herr|].
  destruct (w_kind w) as [| | | |c].
  5: { destruct (c <? 4); [exact Herr|].
       destruct (can_receive (cs se)) eqn:Ecr; [|exact Herr].
       destruct (auth se w && _); [|exact Herr]. cbn [negb].
       destruct (validate_counter (cs se) c) as [s1|] eqn:Ev; cbn; [|apply adv_same].
       apply HandshakeP.validate_spec in Ev as (_ & l & _ & ->). now apply adv_data. }
  (* the four handshake kinds differ only in the nonce n of the message *)
  all: cbv zeta; set (n := msg_nonce _); clearbody n.
  all: destruct (s_init (cs se) && (s_hs (cs se) =? 0) && (n =? 1)) eqn:C1;
    [destruct (auth se w); [apply Hg in C1 as (Gi & Gh); now apply Hreply, adv_rh|exact Herr]|].
  all: destruct (negb (s_init (cs se)) && (s_hs (cs se) =? 1) && (n =? 2)) eqn:C2;
    [destruct (auth se w); [apply Hg in C2 as (Gi%negb_true_iff & Gh); now apply Hreply, adv_id|exact Herr]|].
  all: destruct (s_init (cs se) && (s_hs (cs se) =? 2) && (n =? 3)) eqn:C3;
    [destruct (auth se w); [apply Hg in C3 as (Gi & Gh); now apply Hreply, adv_rd|exact Herr]|].
  all: destruct (_ || _); [apply Hreply, adv_same|exact Herr].
Qed.

Lemma advanced_tag se w se' a : advanced se w se' a -> c_tag se' = c_tag se.
Proof. now destruct 1. Qed.

(* data keyed for another session does not authenticate *)
Lemma data_wrong_tag x w t c : w_to w = Some t -> c_tag x <> t -> w_kind w = MData c -> sess_deliver x w = Ok SErr.
Proof.
  intros T Ne K. unfold sess_deliver. rewrite K.
  destruct (expired x || _); [reflexivity|]. destruct (c <? 4); [reflexivity|].
  destruct (negb (can_receive (cs x))); [reflexivity|].
  unfold auth. rewrite T. cbn [opt_eqb]. assert (E : (t =? c_tag x) = false) by (apply N.eqb_neq; congruence).
  rewrite E. reflexivity.
Qed.

Section WithAccept.
Variable accept : N -> bool.

(* every session that has got as far as knowing keys knows its remote key *)
Definition swf (se : csess) : Prop :=
  (s_init (cs se) = false \/ 2 <= s_hs (cs se)) -> c_rkey se <> None.
Definition owf (x : option csess) : Prop := match x with Some se => swf se | None => True end.

(* an established session: ready, and with the channel's bound key *)
Definition est (ch : chan) (x : option csess) : Prop :=
  match x with
  | None => True
  | Some se => c_ready se = true /\ c_rkey se = ch_remote ch /\ ch_remote ch <> None
  end.

(* the prospective session is not ready yet: it cannot carry application data *)
Definition onr (x : option csess) : Prop := match x with Some se => c_ready se = false | None => True end.

Definition Inv (ch : chan) : Prop :=
  est ch (ch_s0 ch) /\ est ch (ch_s1 ch) /\ (owf (ch_s2 ch) /\ onr (ch_s2 ch)) /\
  (forall k, ch_remote ch = Some k -> accept k = true).

Lemma inv_new key : Inv (new_chan key).
Proof. unfold Inv. cbn. repeat split; auto; discriminate. Qed.

Lemma ready_hs s : is_ready s = true -> 2 <= s_hs s.
Proof. unfold is_ready, can_send, can_receive. destruct (s_init s); lia. Qed.

Lemma ready_init_hs s : is_ready s = true -> s_init s = true -> 3 <= s_hs s.
Proof. unfold is_ready, can_send, can_receive. intros H Hi. rewrite Hi in H. lia. Qed.

Lemma est_swf ch se : est ch (Some se) -> swf se.
Proof. intros (_ & E & Hn) _. congruence. Qed.

Lemma write_handshake_reply (se' : csess) r :
  match write_handshake (cs se') with
  | Ok r0 => Ok (SOk se' false r0) | Err e => Err e | Panic p => Panic p end = Ok r ->
  exists o, r = SOk se' false o.
Proof. destruct (write_handshake (cs se')); intros H; inversion H; eauto. Qed.

(* a session stays well-formed; once ready it stays ready with the same remote key,
   and it is ready when it hands up application data *)
Lemma advanced_keeps se w se' a : advanced se w se' a -> swf se ->
  swf se' /\ (c_ready se = true \/ a = true -> c_ready se' = true /\ c_rkey se' = c_rkey se).
Proof.
  intros A Hwf.
  (* a handshake message that advances the session finds it not ready and leaves it knowing its remote key *)
  assert (Hnr : forall se2, c_ready se = false -> c_rkey se2 <> None ->
            swf se2 /\ (c_ready se = true \/ false = true -> c_ready se2 = true /\ c_rkey se2 = c_rkey se)).
  { intros se2 Hn Hr. split; [intros _; exact Hr|]. intros [H|H]; congruence. }
  unfold c_ready, is_ready, can_send, can_receive in *.
  destruct A as [|Ei E0|Ei E1|Ei E2|n l sn Ecr].
  - split; [exact Hwf|]. intros [H|H]; [auto|discriminate].
  - apply Hnr; [rewrite Ei, E0; reflexivity|discriminate].
  - apply Hnr; [rewrite E1; apply andb_false_r|]. apply Hwf. now left.
  - apply Hnr; [rewrite Ei, E2; reflexivity|]. apply Hwf. right. lia.
  - assert (Hrk : c_rkey se <> None) by (apply Hwf; right; unfold can_receive in Ecr; lia).
    split; [intros _; exact Hrk|]. intros _. cbn. destruct (s_init (cs se)); auto.
Qed.

Lemma est_set_lr ch z x : est ch x -> est (set_lr ch z) x.
Proof. destruct x; auto. Qed.

Lemma est_same_remote ch ch' x : ch_remote ch' = ch_remote ch -> est ch x -> est ch' x.
Proof. intros E. destruct x as [se|]; [|auto]. intros (A & B & C). repeat split; congruence. Qed.

(* Inv is a condition on each slot, and one on the bound key *)
Definition slot_ok (ch : chan) (j : nat) (x : option csess) : Prop :=
  match j with 2%nat => owf x /\ onr x | _ => est ch x end.

Lemma inv_slot ch j : Inv ch -> slot_ok ch j (slot ch j).
Proof. intros (A & B & C & D). destruct j as [|[|[|j]]]; cbn; auto. Qed.

Lemma inv_accept ch k : Inv ch -> ch_remote ch = Some k -> accept k = true.
Proof. intros (_ & _ & _ & D). apply D. Qed.

Lemma inv_bound_accept ch : Inv ch -> ch_remote ch <> None -> exists k, ch_remote ch = Some k /\ accept k = true.
Proof. intros HI H. destruct (ch_remote ch) as [k|] eqn:E; [|congruence]. exists k. eauto using inv_accept. Qed.

Lemma inv_set_slot ch j x : Inv ch -> slot_ok ch j x -> Inv (set_slot ch j x).
Proof. intros (A & B & C & D) H. destruct j as [|[|[|j]]]; unfold Inv; cbn; auto. Qed.

Lemma slot_ok_none ch j : slot_ok ch j None.
Proof. destruct j as [|[|[|j]]]; cbn; auto. Qed.

Lemma slot_ok_swf ch j se : slot_ok ch j (Some se) -> swf se.
Proof. destruct j as [|[|[|j]]]; cbn; try apply est_swf. tauto. Qed.

Lemma slot_ok_initiator ch fresh rank ts : slot_ok ch 2 (Some (mkCS (new_sess true) fresh None None rank ts 0)).
Proof. split; [|reflexivity]. intros [Hx|Hx]; [discriminate|]. now destruct Hx. Qed.

Lemma slot_ok_responder ch fresh p k rank ts :
  slot_ok ch 2 (Some (mkCS (with_hs (new_sess false) 1 (Some 1%nat) 0) fresh p (Some k) rank ts 0)).
Proof. split; [intros _; discriminate|reflexivity]. Qed.

Lemma set_slot_same ch j se : slot ch j = Some se -> set_slot ch j (Some se) = ch.
Proof. destruct ch, j as [|[|[|j]]]; cbn; congruence. Qed.

Lemma remote_set_slot ch j x : ch_remote (set_slot ch j x) = ch_remote ch.
Proof. destruct j as [|[|[|j]]]; reflexivity. Qed.

(* once bound to a key, bound to that key ever after *)
Definition mono (ch ch' : chan) : Prop := forall k, ch_remote ch = Some k -> ch_remote ch' = Some k.

Lemma mono_refl ch : mono ch ch.
Proof. intros k H; exact H. Qed.
Lemma mono_trans a b c : mono a b -> mono b c -> mono a c.
Proof. intros H1 H2 k H. apply H2, H1, H. Qed.

(* onReadySession: the prospective session se is promoted if its key k is (or may become) the bound one *)
Definition promoted (ch : chan) (se : csess) (k : N) : chan :=
  set_slot (set_current (set_bound ch k (c_ts se)) (Some se)) 2 None.

Lemma on_ready_eq ch :
  on_ready accept ch =
  match slot ch 2 with
  | None => (ch, false)
  | Some se => let k := match c_rkey se with Some k => k | None => 0 end in
               if check_key accept ch k then (promoted ch se k, true) else (set_slot ch 2 None, false)
  end.
Proof. unfold on_ready, check_key. destruct (slot ch 2); [destruct (ch_remote ch)|]; reflexivity. Qed.

Lemma promoted_inv ch se k : Inv ch -> c_ready se = true -> c_rkey se = Some k -> check_key accept ch k = true ->
  Inv (promoted ch se k) /\ mono ch (promoted ch se k).
Proof.
  intros (A & B & C & D) R K Ck. unfold check_key in Ck.
  (* the bound key, if there was one, is k *)
  assert (Hk : forall k0, ch_remote ch = Some k0 -> k0 = k).
  { intros k0 E. rewrite E in Ck. now apply N.eqb_eq. }
  split; [|intros k0 E; cbn; now rewrite (Hk k0 E)].
  (* promoted: previous := the old current session, current := se, prospective := none, bound key := k;
     se is established by R and K, the emptied slot needs nothing *)
  unfold Inv, promoted. cbn. repeat split; auto; try discriminate.
  - (* the old current session, now previous: its key was the bound one, which is k *)
    destruct (ch_s1 ch) as [s1|]; [|exact I]. destruct B as (R1 & K1 & N1).
    destruct (ch_remote ch) as [k0|] eqn:E; [|congruence]. rewrite (Hk k0 eq_refl) in K1.
    repeat split; auto; discriminate.
  - (* k is accepted: it was the bound key (D), or accept has just been asked (Ck) *)
    intros k0 [= <-]. destruct (ch_remote ch) as [k0|] eqn:E; [|exact Ck]. rewrite <- (Hk k0 eq_refl). now apply D.
Qed.

(* One iteration of the session loop of Channel.Deliver, once the session in slot j
   has gone from se to se': the new channel state, and false if the session was refused *)
Definition visit (ch : chan) (j : nat) (se se' : csess) : chan * bool :=
  if negb (c_ready se) && c_ready se' then on_ready accept (set_slot ch j (Some se')) else (set_slot ch j (Some se'), true).

(* only the prospective session can become ready *)
Lemma became_eq ch j se se' : Inv ch -> slot ch j = Some se ->
  negb (c_ready se) && c_ready se' = Nat.eqb j 2 && c_ready se'.
Proof.
  intros HI Es. pose proof (inv_slot ch j HI) as S. rewrite Es in S.
  destruct j as [|[|[|j]]]; cbn in S; try (destruct S as (-> & _); reflexivity).
  destruct S as (_ & ->). reflexivity.
Qed.

Lemma visit_eq ch j se se' : Inv ch -> slot ch j = Some se ->
  visit ch j se se' =
  if Nat.eqb j 2 && c_ready se' then
    let k := match c_rkey se' with Some k => k | None => 0 end in
    if check_key accept ch k then (promoted ch se' k, true) else (set_slot ch 2 None, false)
  else (set_slot ch j (Some se'), true).
Proof.
  intros HI Es. unfold visit. rewrite (became_eq ch j se se' HI Es).
  destruct (Nat.eqb_spec j 2) as [->|]; [|reflexivity].
  destruct (c_ready se'); [|reflexivity]. now rewrite on_ready_eq.
Qed.

Lemma visit_inv ch j se w se' a ch2 okp :
  Inv ch -> slot ch j = Some se -> advanced se w se' a -> visit ch j se se' = (ch2, okp) ->
  Inv ch2 /\ mono ch ch2 /\ (okp = true -> a = true -> ch_remote ch2 <> None).
Proof.
  intros HI Es A. rewrite (visit_eq _ _ _ _ HI Es).
  pose proof (inv_slot ch j HI) as S. rewrite Es in S.
  destruct (advanced_keeps _ _ _ _ A (slot_ok_swf _ _ _ S)) as (W' & K).
  destruct (Nat.eqb j 2 && c_ready se') eqn:B.
  - (* the prospective session has become ready: it knows its remote key *)
    apply andb_true_iff in B as (_ & R').
    assert (Hrk : c_rkey se' <> None) by (apply W'; right; now apply ready_hs).
    destruct (c_rkey se') as [k|] eqn:Ek; [|congruence].
    cbv zeta. destruct (check_key accept ch k) eqn:Ck; intros [= <- <-].
    + destruct (promoted_inv ch se' k HI R' Ek Ck) as (I2 & M2).
      split; [exact I2|split; [exact M2|]]. discriminate.  (* promoted binds the key: ch_remote is Some k *)
    + split; [exact (inv_set_slot ch 2 None HI (slot_ok_none ch 2))|]. split; [exact (mono_refl ch)|discriminate].  (* refused: okp = false *)
  - (* otherwise se' goes back into slot j.  In slot 2 it is still not ready (B), so it handed up no data (K);
       in slots 0 and 1 it was ready, so it stays ready with its key (K), which is the bound one (an index from
       3 on holds no session; slot_ok treats it like 0 and 1) *)
    intros [= <- <-].
    assert (G : slot_ok ch j (Some se') /\ (a = true -> ch_remote ch <> None)).
    { destruct j as [|[|[|j]]]; cbn in S, B |- *.
      3: { destruct S as (_ & Nr). split; [tauto|]. intros Ha. destruct (K (or_intror Ha)). congruence. }
      all: destruct S as (R & E & Nn); destruct (K (or_introl R)) as (R' & E'); rewrite E'; auto. }
    rewrite remote_set_slot. split; [apply inv_set_slot; [exact HI|apply G]|]. split; [|intros _; apply G].
    intros k0. now rewrite remote_set_slot.
Qed.

(* application data is handed up only by a channel bound to an accepted key *)
Definition app_ok (ch' : chan) (r : dres) : Prop :=
  match r with DApp _ _ => exists k, ch_remote ch' = Some k /\ accept k = true | _ => True end.

(* says nothing of a call that fails: that none panics is ChannelNP's subject *)
Definition good (ch : chan) (x : result (chan * dres)) : Prop :=
  match x with
  | Ok (ch', r) => Inv ch' /\ mono ch ch' /\ app_ok ch' r
  | _ => True
  end.

(* ... and the same for a run of the session loop, which may fall through (inr) *)
Definition lgood (ch : chan) (x : result (chan * dres) + chan) : Prop :=
  match x with inl x => good ch x | inr ch' => Inv ch' /\ mono ch ch' end.

Lemma lgood_trans ch ch2 x : mono ch ch2 -> lgood ch2 x -> lgood ch x.
Proof.
  intros M. destruct x as [[[ch' r]| |]|ch']; cbn; auto.
  - intros (I' & M' & A'). eauto using mono_trans.
  - intros (I' & M'). eauto using mono_trans.
Qed.

(* Each iteration either passes the session by (induction hypothesis from the same ch) or
   visits it (visit_inv); after the visit the loop stops with ch2, or goes on from ch2
   (induction hypothesis from ch2, and lgood_trans back to ch). *)
Lemma loop_good snap w : forall ord ch, Inv ch -> lgood ch (deliver_loop accept snap w ord ch).
Proof.
  induction ord as [|i t IH]; intros ch HI; cbn [deliver_loop]; [split; [exact HI|apply mono_refl]|].
  pose proof (IH ch HI) as Hskip.
  destruct (nth i snap None) as [se0|]; [|exact Hskip].
  destruct (match w_kind w with MIH => _ | _ => false end); [exact Hskip|].
  destruct (find_tag ch (c_tag se0)) as [j|]; [|exact Hskip].
  destruct (slot ch j) as [se|] eqn:Es; [|exact Hskip].
  pose proof (sess_deliver_adv se w) as A.
  destruct (sess_deliver se w) as [[|se' a o]| |]; try exact I; [exact Hskip|].
  cbv zeta. destruct (_ && negb (Nat.eqb i 2)); [exact I|].
  fold (visit ch j se se'). destruct (visit ch j se se') as [ch2 okp] eqn:Ev.
  destruct (visit_inv _ _ _ _ _ _ _ _ HI Es A Ev) as (I2 & M2 & Hb).
  destruct okp; cbn [negb]; [|exact (conj I2 (conj M2 I))].
  destruct a.
  - (* set_lr is invisible to good *)
    destruct (has_tag _ _); exact (conj I2 (conj M2 (inv_bound_accept _ I2 (Hb eq_refl eq_refl)))).
  - destruct o as [k|]; [exact (conj I2 (conj M2 I))|]. exact (lgood_trans _ _ _ M2 (IH ch2 I2)).
Qed.

Theorem chan_deliver_good fresh ch w : Inv ch -> good ch (chan_deliver accept fresh ch w).
Proof.
  intros HI. unfold chan_deliver.
  pose proof (loop_good (ch_slots ch) w (deliver_order w) ch HI) as HL.
  destruct (deliver_loop accept (ch_slots ch) w (deliver_order w) ch) as [x|ch1]; [exact HL|].
  destruct HL as (I1 & M1).
  assert (Same : forall r, app_ok ch1 r -> good ch (Ok (ch1, r))) by (intros r A; exact (conj I1 (conj M1 A))).
  destruct (w_kind w); try now apply Same.
  destruct (existsb _ _); [now apply Same|]. destruct (w_ts w <? ch_rts ch1); [now apply Same|].
  destruct (negb _); [now apply Same|].
  set (R := mkCS _ fresh _ _ _ _ 0).
  assert (G2 : forall k, good ch (Ok (set_slot ch1 2 (Some R), DSend k))).
  { intros k. split; [|exact (conj M1 I)]. apply inv_set_slot; [exact I1|apply slot_ok_responder]. }
  destruct (slot ch1 2) as [X|]; [|apply G2].
  destruct (if s_init (cs X) then _ else _); [|apply G2].
  destruct (write_handshake (cs X)) as [[k|]| |]; try exact I; now apply Same.
Qed.

(* expireSessions is a sequence of three moves of these two kinds: what they preserve, it preserves *)
Lemma expire_ind (P : chan -> Prop) :
  (forall ch j, P ch -> P (set_slot ch j None)) ->
  (forall ch, P ch -> P (set_current ch None)) ->
  forall ch, P ch -> P (expire ch).
Proof.
  intros Hdrop Hretire ch H. unfold expire.
  assert (H0 : P (expire0 ch)).
  { unfold expire0. destruct (ch_s0 ch) as [se|]; [destruct (expired se)|]; auto. }
  assert (H1 : P (expire1 (expire0 ch))).
  { revert H0. generalize (expire0 ch). intros c H0. unfold expire1.
    destruct (ch_s1 c) as [se|] eqn:E; [destruct (_ || _)|]; auto.
    (* expire1's move is set_current c None, Some se being slot c 1 *)
    rewrite <- E. now apply Hretire. }
  revert H1. generalize (expire1 (expire0 ch)). intros c H1. unfold expire2.
  destruct (ch_s2 c) as [se|]; [destruct (expired se)|]; auto.
Qed.

(* what expireSessions leaves in the current and in the prospective slot; it touches nothing but the slots *)
Lemma expire_spec ch :
  ch_s1 (expire ch) = match ch_s1 ch with
                      | Some se => if expired se || (KEEPALIVE <? ch_lr ch)%Z then None else Some se
                      | None => None end /\
  ch_s2 (expire ch) = match ch_s2 ch with Some se => if expired se then None else Some se | None => None end /\
  ch_key (expire ch) = ch_key ch /\ ch_remote (expire ch) = ch_remote ch /\ ch_rts (expire ch) = ch_rts ch.
Proof.
  destruct ch as [k s0 s1 s2 r rts lr]. unfold expire.
  (* expire0 touches the previous slot only, which the statement does not mention *)
  assert (E0 : exists x, expire0 (mkCh k s0 s1 s2 r rts lr) = mkCh k x s1 s2 r rts lr).
  { unfold expire0. cbn. destruct s0 as [a|]; [destruct (expired a)|]; cbn; eauto. }
  destruct E0 as [x ->]. unfold expire1, expire2. cbn.
  destruct s1 as [b|]; [destruct (expired b || _)|]; cbn; (destruct s2 as [c|]; [destruct (expired c)|]); cbn; auto.
Qed.

(* What survives expiry in the current slot is not expired and was heard from lately.
   So the test `if expired se` that chan_send makes after expire never fires. *)
Lemma expire_current ch se : ch_s1 (expire ch) = Some se ->
  ch_s1 ch = Some se /\ expired se = false /\ (ch_lr ch <= KEEPALIVE)%Z.
Proof.
  rewrite (proj1 (expire_spec ch)). destruct (ch_s1 ch) as [s1|]; [|discriminate].
  destruct (expired s1) eqn:Ex; [discriminate|]. destruct (Z.ltb_spec KEEPALIVE (ch_lr ch)); [discriminate|].
  intros [= <-]. auto.
Qed.

Lemma chan_send_eq ch :
  chan_send ch =
  match ch_s1 (expire ch) with
  | Some se => match send (cs se) with
               | Some (s', c) => (set_slot (expire ch) 1 (Some (upd se s')), Some (emit (expire ch) se (MData c)))
               | None => (expire ch, None)
               end
  | None => (expire ch, None)
  end.
Proof.
  unfold chan_send. cbn [slot]. destruct (ch_s1 (expire ch)) as [se|] eqn:E; [|reflexivity].
  destruct (expire_current _ _ E) as (_ & -> & _). reflexivity.
Qed.

Lemma inv_retire ch : Inv ch -> Inv (set_current ch None).
Proof.
  intros HI. apply inv_set_slot; [|exact I]. apply inv_set_slot; [exact HI|]. apply (inv_slot ch 1 HI).
Qed.

Lemma expire_inv ch : Inv ch -> Inv (expire ch).
Proof.
  apply expire_ind.
  - intros c j I1. apply inv_set_slot; [exact I1|apply slot_ok_none].
  - apply inv_retire.
Qed.

Lemma rekey_inv fresh rank ts ch : Inv ch -> Inv (fst (chan_rekey fresh rank ts ch)).
Proof.
  intros H%expire_inv. unfold chan_rekey.
  destruct (slot (expire ch) 2); [exact H|]. apply expire_inv, inv_set_slot; [exact H|apply slot_ok_initiator].
Qed.

Lemma send_inv ch : Inv ch -> Inv (fst (chan_send ch)).
Proof.
  intros I1%expire_inv. rewrite chan_send_eq. pose proof (inv_slot _ 1 I1) as S. cbn [slot] in S.
  destruct (ch_s1 (expire ch)) as [se|]; [|exact I1].
  destruct (send (cs se)) as [[s' c]|] eqn:Es; [|exact I1].
  (* Send steps the nonce only (send_spec); est reads role, stage and remote key, so S, stated of se, holds of
     the new session by computation *)
  apply HandshakeP.send_spec in Es as (_ & _ & _ & ->). exact (inv_set_slot _ 1 _ I1 S).
Qed.

(* ageing changes no field that the invariant reads *)
Lemma age_inv d ch : Inv ch -> Inv (chan_age d ch).
Proof. destruct ch as [k [a|] [b|] [c|] r ts lr]; exact (fun H => H). Qed.

(* no timer and no Send touches the bound key or the channel's own *)
Lemma rekey_meta fresh rank ts ch :
  ch_remote (fst (chan_rekey fresh rank ts ch)) = ch_remote ch /\ ch_key (fst (chan_rekey fresh rank ts ch)) = ch_key ch.
Proof.
  destruct (expire_spec ch) as (_ & _ & K & R & _). unfold chan_rekey.
  destruct (slot (expire ch) 2); [now split|]. unfold chan_handshake. cbn [fst].
  destruct (expire_spec (set_slot (expire ch) 2 (Some (mkCS (new_sess true) fresh None None rank ts 0)))) as (_ & _ & K' & R' & _).
  now rewrite K', R'.
Qed.

Lemma send_remote ch : ch_remote (fst (chan_send ch)) = ch_remote ch.
Proof.
  rewrite chan_send_eq. destruct (ch_s1 (expire ch)) as [se|]; [destruct (send (cs se)) as [[s' c]|]|];
    cbn [fst]; rewrite ?remote_set_slot; apply expire_spec.
Qed.

Lemma send_bound ch ch' w : Inv ch -> chan_send ch = (ch', Some w) ->
  exists se k, ch_s1 (expire ch) = Some se /\ c_rkey se = Some k /\ ch_remote ch = Some k /\ accept k = true.
Proof.
  intros I1%expire_inv. rewrite chan_send_eq. destruct (expire_spec ch) as (_ & _ & _ & R & _).
  pose proof (inv_slot _ 1 I1) as S. cbn [slot] in S.
  destruct (ch_s1 (expire ch)) as [se|]; [|discriminate].
  destruct S as (_ & K & Nn). destruct (inv_bound_accept _ I1 Nn) as (k & Ek & Ak).
  intros _. exists se, k. repeat split; congruence.
Qed.

Inductive cop :=
| ODeliver (fresh : N) (w : wire)
| ORekey (fresh rank ts : N)
| OHandshake
| OSend
| OAge (d : Z).

Definition cstep (ch : chan) (o : cop) : result (chan * option dres) :=
  match o with
  | ODeliver fresh w => match chan_deliver accept fresh ch w with
                        | Ok (ch', r) => Ok (ch', Some r) | Err e => Err e | Panic p => Panic p end
  | ORekey fresh rank ts => Ok (fst (chan_rekey fresh rank ts ch), None)
  | OHandshake => Ok (fst (chan_handshake ch), None)
  | OSend => Ok (fst (chan_send ch), None)
  | OAge d => Ok (chan_age d ch, None)
  end.

Lemma cstep_good ch o ch' r : Inv ch -> cstep ch o = Ok (ch', r) ->
  Inv ch' /\ mono ch ch' /\ match r with Some r => app_ok ch' r | None => True end.
Proof.
  intros HI.
  (* the operations other than Deliver leave the bound key as it is *)
  assert (Hop : forall ch1, Inv ch1 -> ch_remote ch1 = ch_remote ch -> Ok (ch1, None) = Ok (ch', r) ->
            Inv ch' /\ mono ch ch' /\ match r with Some r => app_ok ch' r | None => True end).
  { intros ch1 I1 R1 [= <- <-]. split; [exact I1|split; [|exact I]]. intros k. now rewrite R1. }
  destruct o as [fresh w|fresh rank ts| | |d]; cbn [cstep].
  - pose proof (chan_deliver_good fresh ch w HI) as G.
    destruct (chan_deliver accept fresh ch w) as [[c r0]| |]; try discriminate.
    intros [= <- <-]. exact G.
  - apply Hop; [now apply rekey_inv|apply rekey_meta].
  - apply Hop; [now apply expire_inv|apply expire_spec].
  - apply Hop; [now apply send_inv|apply send_remote].
  - apply Hop; [now apply age_inv|reflexivity].
Qed.

Fixpoint ctrace (ch : chan) (ops : list cop) : list (chan * option dres) :=
  match ops with
  | [] => []
  | o :: t => match cstep ch o with
              | Ok (ch', r) => (ch', r) :: ctrace ch' t
              | _ => []
              end
  end.

Theorem ctrace_good : forall ops ch, Inv ch ->
  forall ch' r, In (ch', r) (ctrace ch ops) ->
    Inv ch' /\ mono ch ch' /\ match r with Some r => app_ok ch' r | None => True end.
Proof.
  induction ops as [|o t IH]; intros ch HI ch' r Hin; [contradiction|]. cbn [ctrace] in Hin.
  destruct (cstep ch o) as [[c1 r1]| |] eqn:E; try contradiction.
  destruct (cstep_good _ _ _ _ HI E) as (I1 & M1 & A1).
  destruct Hin as [[= <- <-]|Hin]; [auto|].
  destruct (IH c1 I1 ch' r Hin) as (I2 & M2 & A2). eauto using mono_trans.
Qed.

Corollary ctrace_new key ops ch' r : In (ch', r) (ctrace (new_chan key) ops) ->
  Inv ch' /\ match r with Some r => app_ok ch' r | None => True end.
Proof. intros Hin. destruct (ctrace_good ops _ (inv_new key) ch' r Hin) as (A & _ & B). auto. Qed.

End WithAccept.
