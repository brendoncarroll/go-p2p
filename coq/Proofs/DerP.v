(* C17, the SPKI half: base-128 arcs and their minimal encoding, TLV reading, and the round
   trip of marshal_spki / parse_spki from which equality by encoding and the fingerprint
   results follow. *)
From P2PV Require Import Lib.Base Lib.Der Proofs.BaseP Proofs.VarintP.
From Coq Require Import Lia ZifyBool ZifyN ZifyNat.
Open Scope N_scope.

Lemma digits_needed_pos k n : (1 <= digits_needed k n)%nat.
Proof. unfold digits_needed. lia. Qed.

(* w = digits_needed k n is the least w >= 1 with size n <= k * w *)
Lemma digits_needed_spec k n : 0 < k -> let w := N.of_nat (digits_needed k n) in
  N.size n <= k * w /\ (1 < w -> k * (w - 1) < N.size n).
Proof.
  intros Hk. unfold digits_needed. rewrite N2Nat.id.
  pose proof (N.div_mod (N.size n + (k - 1)) k ltac:(lia)) as E.
  pose proof (N.mod_lt (N.size n + (k - 1)) k ltac:(lia)) as L.
  set (q := (N.size n + (k - 1)) / k) in *. set (r := (N.size n + (k - 1)) mod k) in *.
  clearbody q r. cbv zeta.
  destruct (N.le_gt_cases q 1) as [Hq|Hq].
  - rewrite N.max_l by exact Hq. apply (N.mul_le_mono_l _ _ k) in Hq. split; lia.
  - rewrite N.max_r, N.mul_sub_distr_l by lia. apply (N.mul_lt_mono_pos_l k) in Hq; lia.
Qed.

Lemma digits_needed_upper k n : 0 < k -> n < (2 ^ k) ^ N.of_nat (digits_needed k n).
Proof.
  intros Hk. rewrite <- N.pow_mul_r. eapply N.lt_le_trans; [apply N.size_gt|].
  apply N.pow_le_mono_r; [lia|]. now apply digits_needed_spec.
Qed.

Lemma digits_needed_lower k n : 0 < k -> (1 < digits_needed k n)%nat ->
  (2 ^ k) ^ (N.of_nat (digits_needed k n) - 1) <= n.
Proof.
  intros Hk Hw. destruct (digits_needed_spec k n Hk) as [_ Hl]. specialize (Hl ltac:(lia)).
  assert (Hn : n <> 0) by (intros ->; change (N.size 0) with 0 in Hl; lia).
  rewrite <- N.pow_mul_r. eapply N.le_trans; [|apply N.log2_spec; lia].
  apply N.pow_le_mono_r; [lia|]. rewrite N.size_log2 in Hl by exact Hn. lia.
Qed.

Lemma read_tlv_tlv tag c r : read_tlv (tlv tag c ++ r) = Some (tag, c, r).
Proof.
  unfold tlv, der_len. set (n := lenN c).
  destruct (N.ltb_spec n 128) as [Hs|Hl]; cbn [app read_tlv].
  - rewrite (proj2 (N.ltb_lt n 128) Hs).
    now destruct (read_app c r n eq_refl) as (-> & -> & ->).
  - set (w := digits_needed 8 n).
    pose proof (digits_needed_pos 8 n) as Hw. fold w in Hw.
    rewrite (proj2 (N.ltb_ge (128 + N.of_nat w) 128)) by lia.
    replace (128 + N.of_nat w - 128) with (N.of_nat w) by lia.
    rewrite (proj2 (N.eqb_neq (N.of_nat w) 0)) by lia.
    rewrite <- app_assoc. destruct (read_app _ (c ++ r) _ (be_encode_len w n)) as (-> & -> & ->). cbn [orb].
    rewrite be_decode_encode by (apply (digits_needed_upper 8 n eq_refl)).
    (* canonical: the length bytes are those der_len produces *)
    unfold der_len. rewrite (proj2 (N.ltb_ge n 128) Hl). fold w. rewrite bytes_eqb_refl. cbn [negb].
    now destruct (read_app c r n eq_refl) as (-> & -> & ->).
Qed.

Lemma read_tlv_whole tag c : read_tlv (tlv tag c) = Some (tag, c, []).
Proof. rewrite <- (app_nil_r (tlv tag c)). apply read_tlv_tlv. Qed.

Lemma b128_digits_nonempty w n : (1 <= w)%nat -> b128_digits w n <> [].
Proof. destruct w; [lia|]. cbn [b128_digits]. discriminate. Qed.

(* Reading back w digits: the value read is acc continued by the low w digits of n. At the
   start of an arc (first = true) the reader insists on a minimal encoding: the top digit,
   if more follow, is not zero. *)
Lemma b128_read_digits w : forall n acc first r, (1 <= w)%nat ->
  (first = true -> (1 < w)%nat -> 128 ^ (N.of_nat w - 1) <= n mod 128 ^ N.of_nat w) ->
  b128_read (b128_digits w n ++ r) acc first =
    (let v := acc * 128 ^ N.of_nat w + n mod 128 ^ N.of_nat w in if MAX_ARC <? v then None else Some (v, r)).
Proof.
  induction w as [|w IH]; intros n acc first r Hw Htop; [lia|].
  cbn [b128_digits app b128_read].
  rewrite Nat2N.inj_succ, mod_pow_succ, N.pow_succ_r' in * by discriminate.
  rewrite <- N.add_1_r, N.add_sub in Htop.
  pose proof (N.mod_lt (n / 128 ^ N.of_nat w) 128 ltac:(discriminate)) as Hd.
  destruct w as [|w'].
  - (* the last digit carries no continuation bit *)
    cbn [b128_digits app]. change (128 ^ N.of_nat 0) with 1 in *. rewrite N.mod_1_r, !N.mul_1_r, !N.add_0_r.
    set (d := (n / 1) mod 128) in *. clearbody d.
    rewrite (proj2 (N.eqb_neq d 128)), Bool.andb_false_r, (proj2 (N.ltb_lt d 128)) by lia.
    reflexivity.
  - rewrite IH by (discriminate || lia).
    pose proof (N.mod_lt n (128 ^ N.of_nat (S w')) ltac:(apply N.pow_nonzero; discriminate)) as Hm.
    set (p := 128 ^ N.of_nat (S w')) in *. set (d := (n / p) mod 128) in *. set (m := n mod p) in *.
    clearbody p d m.
    replace (first && (d + 128 =? 128)) with false.
    2:{ (* minimality: Htop now reads p <= d * p + m, and m < p, so the top digit d is not 0 *)
        destruct first; [|reflexivity]. specialize (Htop eq_refl ltac:(lia)).
        destruct (N.eqb_spec d 0) as [->|]; cbn [andb]; lia. }
    rewrite (proj2 (N.ltb_ge (d + 128) 128)) by lia. cbv zeta.
    replace ((acc * 128 + (d + 128 - 128)) * p + m) with (acc * (128 * p) + (d * p + m)) by nia.
    reflexivity.
Qed.

Lemma b128_read_base128 n r : n <= MAX_ARC -> b128_read (base128 n ++ r) 0 true = Some (n, r).
Proof.
  intros Hn. unfold base128. set (w := digits_needed 7 n).
  pose proof (digits_needed_upper 7 n eq_refl) as Hu. fold w in Hu.
  rewrite b128_read_digits.
  - cbn zeta. rewrite N.mod_small, N.mul_0_l, N.add_0_l by exact Hu.
    destruct (N.ltb_spec MAX_ARC n); [lia|reflexivity].
  - apply digits_needed_pos.
  - (* minimal: the top digit is not zero *)
    intros _ Hw. rewrite N.mod_small by exact Hu. exact (digits_needed_lower 7 n eq_refl Hw).
Qed.

Lemma base128_nonempty n : base128 n <> [].
Proof. apply b128_digits_nonempty, digits_needed_pos. Qed.

Lemma b128_read_all_step f b : b <> [] ->
  b128_read_all (S f) b = match b128_read b 0 true with
                          | Some (v, r) => option_map (cons v) (b128_read_all f r)
                          | None => None end.
Proof. destruct b; [contradiction|reflexivity]. Qed.

Lemma b128_read_all_spec l : forall fuel,
  forallb (fun a => a <=? MAX_ARC) l = true -> (length (flat_map base128 l) < fuel)%nat ->
  b128_read_all fuel (flat_map base128 l) = Some l.
Proof.
  induction l as [|a l IH]; intros fuel Hall Hf; cbn [flat_map].
  - destruct fuel; reflexivity.
  - cbn [forallb] in Hall. apply andb_prop in Hall as [Ha Hl]. apply N.leb_le in Ha.
    cbn [flat_map] in Hf. rewrite app_length in Hf.
    pose proof (base128_nonempty a) as Hne.
    destruct fuel as [|f]; [lia|].
    rewrite b128_read_all_step.
    2:{ intros E. apply app_eq_nil in E as [E _]. contradiction. }
    rewrite b128_read_base128 by assumption.
    rewrite IH; [reflexivity|assumption|].
    destruct (base128 a); [contradiction|]. cbn [length] in Hf. lia.
Qed.

Lemma parse_oid_content oid : valid_oid oid = true -> parse_oid (oid_content oid) = Some oid.
Proof.
  destruct oid as [|a0 [|a1 rest]]; try discriminate. cbn [valid_oid oid_content].
  intros H. apply andb_prop in H as [H Hrest]. apply andb_prop in H as [H Hmax]. apply andb_prop in H as [H0 H1].
  unfold parse_oid.
  change (base128 (40 * a0 + a1) ++ flat_map base128 rest) with (flat_map base128 ((40 * a0 + a1) :: rest)).
  pose proof (b128_read_all_spec ((40 * a0 + a1) :: rest) (S (length (flat_map base128 ((40 * a0 + a1) :: rest))))) as R.
  rewrite R; [| |lia].
  - destruct (N.ltb_spec (40 * a0 + a1) 80) as [Hlt|Hge].
    + assert (a1 < 40) by lia. f_equal. f_equal; [|f_equal]; lia.
    + assert (a0 = 2) by lia. subst a0. f_equal. f_equal. f_equal. lia.
  - cbn [forallb]. now rewrite Hmax, Hrest.
Qed.

Lemma valid_encodable oid : valid_oid oid = true -> encodable_oid oid = true.
Proof.
  destruct oid as [|a0 [|a1 rest]]; try discriminate. cbn [valid_oid encodable_oid].
  intros H. apply andb_prop in H as [H _]. apply andb_prop in H as [H _]. exact H.
Qed.

Theorem spki_roundtrip oid data : valid_oid oid = true -> parse_spki (marshal_spki oid data) = Some (oid, data).
Proof.
  intros Hv. unfold marshal_spki, parse_spki. rewrite (valid_encodable _ Hv).
  rewrite read_tlv_whole. cbn [negb N.eqb TAG_SEQ Pos.eqb].
  rewrite read_tlv_tlv. cbn [negb].
  rewrite !read_tlv_whole. cbn [negb orb].
  now rewrite parse_oid_content.
Qed.

Lemma marshal_spki_invalid oid data : encodable_oid oid = false -> marshal_spki oid data = [].
Proof. intros H. unfold marshal_spki. now rewrite H. Qed.

Lemma parse_spki_nil : parse_spki [] = None.
Proof. reflexivity. Qed.

Theorem spki_injective o1 d1 o2 d2 : valid_oid o1 = true -> valid_oid o2 = true ->
  marshal_spki o1 d1 = marshal_spki o2 d2 -> o1 = o2 /\ d1 = d2.
Proof.
  intros H1 H2 E. pose proof (spki_roundtrip o1 d1 H1) as R1. rewrite E, (spki_roundtrip o2 d2 H2) in R1.
  injection R1 as -> ->. auto.
Qed.

(* oid_eqb is, word for word, the fixpoint bytes_eqb *)
Lemma oid_eqb_spec a b : reflect (a = b) (oid_eqb a b).
Proof. exact (bytes_eqb_spec a b). Qed.

Theorem equal_iff_encoding o1 d1 o2 d2 : valid_oid o1 = true -> valid_oid o2 = true ->
  (equal_keys o1 d1 o2 d2 = true <-> marshal_spki o1 d1 = marshal_spki o2 d2).
Proof.
  intros H1 H2. unfold equal_keys. split.
  - intros H. apply andb_prop in H as [Ho Hd].
    destruct (oid_eqb_spec o1 o2); [|discriminate]. destruct (bytes_eqb_spec d1 d2); [|discriminate]. congruence.
  - intros E. destruct (spki_injective _ _ _ _ H1 H2 E) as [-> ->].
    destruct (oid_eqb_spec o2 o2); [|congruence]. now rewrite bytes_eqb_refl.
Qed.

(* the fingerprint is a function of the key alone, for any hash *)
Theorem fingerprint_function_of_key (H : bytes -> bytes) o1 d1 o2 d2 :
  valid_oid o1 = true -> valid_oid o2 = true -> equal_keys o1 d1 o2 d2 = true ->
  H (marshal_spki o1 d1) = H (marshal_spki o2 d2).
Proof. intros H1 H2 E. f_equal. now apply equal_iff_encoding. Qed.

(* ... and never of the wire bytes it was parsed from *)
Theorem fingerprint_of_parsed (H : bytes -> bytes) w w' o d :
  parse_spki w = Some (o, d) -> parse_spki w' = Some (o, d) ->
  H (marshal_spki o d) = H (marshal_spki o d).
Proof. reflexivity. Qed.
