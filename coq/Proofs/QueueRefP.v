(* The two queue models agree: used by one caller at a time (every Receive's
   callback returns before the next call), the buffer-level model QueueBuf
   behaves exactly like the message-level model Queue.  abs forgets the buffers. *)
From P2PV Require Import Lib.Base Model.Queue Model.QueueBuf.
From Coq Require Import Lia.
Open Scope nat_scope.

Definition abs (s : bq) : queue := mkQ (b_cap s) (b_mtu s) (map snd (b_queue s)) (b_closed s).

(* one call of the sequential interface, executed on the buffer-level model *)
Definition bq_call (s : bq) (o : qop) : bq * qout :=
  match o with
  | QDeliver m => match bstep s (BDeliver m) with
                  | Some (s', BWrote _) => (s', QAccepted) | Some (s', _) => (s', QRefused) | None => (s, QRefused) end
  | QReceive => match bstep s BRecvBegin with
                | Some (s1, BGot b m) => match bstep s1 (BRecvEnd b) with Some (s2, _) => (s2, QGot m) | None => (s1, QGot m) end
                | _ => (s, if b_closed s then QErrClosed else QWouldBlock) end
  | QRecvCancelled taken =>
      if taken then
        match bstep s BRecvBegin with
        | Some (s1, BGot b m) => match bstep s1 (BRecvEnd b) with Some (s2, _) => (s2, QGot m) | None => (s1, QGot m) end
        | _ => (s, QCtxErr) end
      else (s, QCtxErr)
  | QPurge => match bstep s BPurge with Some (s', _) => (s', QCount (length (b_queue s))) | None => (s, QCount 0) end
  | QClose => match bstep s BClose with Some (s', _) => (s', QDone) | None => (s, QDone) end
  | QLen => (s, QCount (length (b_queue s)))
  end.

(* between two calls of a single caller no callback is running, so every buffer is free or queued *)
Definition Quiet (s : bq) : Prop := b_busy s = [] /\ length (b_free s) + length (b_queue s) = b_cap s.

(* Receive and a cancelled Receive whose select took a message do the same: the oldest
   message is handed to the callback, which returns its buffer before anything else
   happens.  They differ only in what they answer when nothing is queued. *)
Lemma take_refines s o : o = QReceive \/ o = QRecvCancelled true -> Quiet s ->
  qstep (abs s) o = (abs (fst (bq_call s o)), snd (bq_call s o)) /\ Quiet (fst (bq_call s o)).
Proof.
  intros Ho [Hb Len]. unfold Quiet. destruct (b_queue s) as [|[b m] t] eqn:Eq.
  - destruct Ho as [-> | ->].
    all: unfold bq_call, bstep, qstep, abs; rewrite Eq; cbn; rewrite Eq; auto.
  - (* b is the only busy buffer between the two events *)
    destruct Ho as [-> | ->].
    all: unfold bq_call, bstep, qstep, abs; rewrite Eq, Hb; cbn.
    all: rewrite !Nat.eqb_refl; cbn; rewrite app_length; cbn in *.
    all: split; [reflexivity|split; [reflexivity|lia]].
Qed.

Theorem bq_call_refines s o : Quiet s ->
  qstep (abs s) o = (abs (fst (bq_call s o)), snd (bq_call s o)) /\ Quiet (fst (bq_call s o)).
Proof.
  intros Q. pose proof Q as [Hb Len].
  (* Purge and Close put every queued buffer back on the freelist *)
  assert (Drop : forall c, Quiet (mkBQ (b_cap s) (b_mtu s) (b_free s ++ map fst (b_queue s)) [] (b_busy s) c)).
  { intros c. split; [exact Hb|]. cbn. rewrite app_length, map_length. lia. }
  destruct o as [m| |[|]| | |].
  - unfold Quiet, bq_call, bstep, qstep, abs. cbn [q_mtu q_closed q_items q_cap]. rewrite map_length.
    destruct (Nat.ltb (b_mtu s) _); [auto|]. destruct (b_closed s) eqn:Ec; [cbn; rewrite Ec; auto|].
    (* there is room in the queue exactly when the freelist is not empty *)
    destruct (b_free s) as [|b t] eqn:Ef; cbn [length] in Len.
    + destruct (Nat.ltb_spec (length (b_queue s)) (b_cap s)); [lia|]. cbn. rewrite Ec, Ef. auto.
    + destruct (Nat.ltb_spec (length (b_queue s)) (b_cap s)); [|lia].
      cbn. rewrite map_app, app_length. cbn. split; [reflexivity|split; [exact Hb|lia]].
  - apply take_refines; auto.
  - apply take_refines; auto.
  - split; [reflexivity|exact Q].
  - split; [cbn; now rewrite map_length|apply Drop].
  - split; [reflexivity|apply Drop].
  - split; [cbn; now rewrite map_length|exact Q].
Qed.

Fixpoint bq_calls (s : bq) (ops : list qop) : bq * list qout :=
  match ops with
  | [] => (s, [])
  | o :: t => let '(s1, r) := bq_call s o in let '(s2, rs) := bq_calls s1 t in (s2, r :: rs)
  end.

Theorem queue_models_agree ops : forall s, Quiet s -> snd (bq_calls s ops) = snd (qrun (abs s) ops).
Proof.
  induction ops as [|o t IH]; intros s Q; [reflexivity|]. cbn [bq_calls qrun].
  destruct (bq_call_refines s o Q) as [E Q1]. rewrite E, (surjective_pairing (bq_call s o)).
  rewrite (surjective_pairing (bq_calls _ t)), (surjective_pairing (qrun _ t)). cbn [snd]. now rewrite (IH _ Q1).
Qed.

Corollary fresh_queue_models_agree cap mtu ops :
  snd (bq_calls (new_bq cap mtu) ops) = snd (qrun (new_queue cap mtu) ops).
Proof. apply (queue_models_agree ops (new_bq cap mtu)). split; [reflexivity|]. cbn. rewrite seq_length. lia. Qed.

Print Assumptions fresh_queue_models_agree.
