(* C06: the handshake state machine under loss, duplication, reordering and reflection.
   Deliver and Send act on one session: effect lists what Deliver can do to it, and side_ok is
   the part of the pair invariant Inv that speaks of one session, given the data counters either
   side has emitted; it is preserved once, by role and stage (effect_ok, send_ok).  What ties
   the two sessions together is the table good_pairs of reachable pairs of stages: it is closed
   under the moves that the messages emitted so far allow (good_pair_moves). *)
From P2PV Require Import Lib.Base Model.Handshake.
From Coq Require Import Lia ZifyBool ZifyN ZifyNat.
Open Scope N_scope.

Definition ih (p : pair) : N := s_hs (p_i p).
Definition rh (p : pair) : N := s_hs (p_r p).

Definition good_pairs : list (N * N) := [(0,0); (0,1); (2,1); (2,3); (4,3); (8,3); (4,8); (8,8)].
Definition good_pair (a b : N) : bool := existsb (fun q => (fst q =? a) && (snd q =? b)) good_pairs.

Definition under_limit (p : pair) : Prop := s_nonce (p_i p) < MAX_NONCE /\ s_nonce (p_r p) < MAX_NONCE.

Record Inv (p : pair) : Prop := mkInv {
  inv_ri : s_init (p_i p) = true;
  inv_rr : s_init (p_r p) = false;
  inv_good : good_pair (ih p) (rh p) = true;
  inv_ci : s_cache (p_i p) = [true; false; 2 <=? ih p; false];
  inv_cr : s_cache (p_r p) = [false; 1 <=? rh p; false; 3 <=? rh p];
  inv_ni : if 4 <=? ih p then 16 <= s_nonce (p_i p) else s_nonce (p_i p) = 0;
  inv_nr : if 3 <=? rh p then 16 <= s_nonce (p_r p) else s_nonce (p_r p) = 0;
  inv_fi : forall c, memN c (p_from_i p) = true -> 16 <= c < s_nonce (p_i p);
  inv_fr : forall c, memN c (p_from_r p) = true -> 16 <= c < s_nonce (p_r p);
  inv_sr : forall c, memN c (s_seen (p_r p)) = true -> memN c (p_from_i p) = true;
  inv_si : forall c, memN c (s_seen (p_i p)) = true -> memN c (p_from_r p) = true;
  inv_lr : s_last (p_r p) = 0 \/ memN (s_last (p_r p)) (s_seen (p_r p)) = true;
  inv_li : s_last (p_i p) = 0 \/ memN (s_last (p_i p)) (s_seen (p_i p)) = true;
}.

Lemma inv_init : Inv init_pair.
Proof. constructor; cbn; auto; try reflexivity; try discriminate. Qed.

Lemma memN_cons_iff x y l : memN x (y :: l) = true <-> x = y \/ memN x l = true.
Proof. cbn [memN]. now rewrite Bool.orb_true_iff, N.eqb_eq. Qed.

Inductive effect (s : sess) : msg -> sess -> Prop :=
| E_same m : effect s m s
| E_ih : s_init s = false -> s_hs s = 0 -> effect s MIH (with_hs s 1 (Some 1%nat) (s_nonce s))
| E_rh : s_init s = true -> s_hs s = 0 -> effect s MRH (with_hs s 2 (Some 2%nat) (s_nonce s))
| E_id : s_init s = false -> s_hs s = 1 -> effect s MID (with_hs s 3 (Some 3%nat) NONCE_POST_HANDSHAKE)
| E_rd : s_init s = true -> s_hs s = 2 -> effect s MRD (with_hs s 4 None NONCE_POST_HANDSHAKE)
| E_data c l : 4 <= c < MAX_NONCE -> 2 <= s_hs s -> l = c \/ l = s_last s ->
    effect s (MData c)
      (mkS (s_init s) 8 (s_cache s)
           (if s_init s && (s_hs s =? 2) then NONCE_POST_HANDSHAKE else s_nonce s) l (c :: s_seen s)).

Lemma validate_spec s c s1 : validate_counter s c = Some s1 ->
  c < MAX_NONCE /\
  exists l, (l = c \/ l = s_last s) /\ s1 = mkS (s_init s) (s_hs s) (s_cache s) (s_nonce s) l (c :: s_seen s).
Proof.
  unfold validate_counter. destruct (N.leb_spec MAX_NONCE c) as [|Hc]; [discriminate|].
  destruct (s_last s <? c).
  - intros H; injection H as <-. eauto.
  - destruct (WINDOW <? s_last s - c); [discriminate|]. destruct (memN c (s_seen s)); [discriminate|].
    intros H; injection H as <-. eauto.
Qed.

Lemma read_handshake_effect s m s' :
  (forall c, m <> MData c) -> read_handshake s m = Some s' -> effect s m s'.
Proof.
  intros Hm. unfold read_handshake.
  (* per message and role: a message of the wrong parity for the role is not read at all (None: easy); one of
     the right parity is read, at the one stage that expects it, into that message's move, and at any other
     stage taken for a repeat (E_same) *)
  destruct m as [| | | |c]; [| | | |now destruct (Hm c)];
    cbn [msg_nonce]; destruct (s_init s) eqn:Ei; cbn;
    rewrite ?Bool.andb_false_r, ?Bool.andb_true_r; try easy;
    destruct (s_hs s =? _) eqn:Eh; intros H; injection H as <-;
    constructor; try assumption; now apply N.eqb_eq.
Qed.

(* Deliver fails only if the handshake message to answer with cannot be written *)
Lemma deliver_spec s m :
  match deliver s m with
  | Ok (s', _) => effect s m s'
  | _ => exists s1, effect s m s1 /\ forall r, write_handshake s1 <> Ok r
  end.
Proof.
  unfold deliver. destruct (MAX_NONCE <=? s_nonce s); [constructor|].
  destruct m as [| | | |c].
  5:{ destruct (N.ltb_spec c 4) as [|H4]; [constructor|].
      unfold can_receive. destruct (N.leb_spec 2 (s_hs s)) as [H2|]; [|constructor]. cbn [negb].
      destruct (validate_counter s c) as [s1|] eqn:Ev; [|constructor].
      apply validate_spec in Ev as (Hc & l & Hl & ->). cbn. now constructor. }
  all: destruct (read_handshake s _) as [s1|] eqn:Er; [|constructor];
    apply read_handshake_effect in Er; [|discriminate];
    destruct (write_handshake s1) eqn:Ew; [exact Er|exists s1; now rewrite Ew..].
Qed.

Lemma send_spec s s' c : send s = Some (s', c) ->
  can_send s = true /\ c = s_nonce s /\ c < MAX_NONCE /\
  s' = mkS (s_init s) (s_hs s) (s_cache s) (c + 1) (s_last s) (s_seen s).
Proof.
  unfold send. destruct (N.leb_spec MAX_NONCE (s_nonce s)); [discriminate|].
  destruct (can_send s); [|discriminate]. intros H'; injection H' as <- <-. auto.
Qed.

(* hsIndex by role; 8 is what Deliver sets it to when it accepts application data *)
Definition stages (init : bool) : list N := if init then [0; 2; 4; 8] else [0; 1; 3; 8].
Definition cache_of (init : bool) (hs : N) : list bool :=
  if init then [true; false; 2 <=? hs; false] else [false; 1 <=? hs; false; 3 <=? hs].
(* the stage from which a session of this role has its data keys *)
Definition keyed (init : bool) (hs : N) : bool := if init then 4 <=? hs else 3 <=? hs.

(* sent, rcvd: the data counters this session, and its peer, have emitted *)
Record side_ok (s : sess) (sent rcvd : list N) : Prop := mkSide {
  ok_stage : In (s_hs s) (stages (s_init s));
  ok_cache : s_cache s = cache_of (s_init s) (s_hs s);
  ok_nonce : if keyed (s_init s) (s_hs s) then 16 <= s_nonce s else s_nonce s = 0;
  ok_sent : forall c, memN c sent = true -> 16 <= c < s_nonce s;
  ok_seen : forall c, memN c (s_seen s) = true -> memN c rcvd = true;
  ok_last : s_last s = 0 \/ memN (s_last s) (s_seen s) = true }.

Lemma can_send_keyed s : In (s_hs s) (stages (s_init s)) -> can_send s = keyed (s_init s) (s_hs s).
Proof.
  unfold can_send, keyed, stages. destruct (s_init s); cbn [In]; intros H;
    repeat destruct H as [<-|H]; try reflexivity; contradiction.
Qed.

(* a session that can receive data has its whole cache, and has its keys unless it is
   an initiator still waiting for RespDone *)
Lemma can_receive_stage init hs : In hs (stages init) -> 2 <= hs ->
  hs <= 8 /\ cache_of init hs = cache_of init 8 /\ keyed init hs = negb (init && (hs =? 2)).
Proof.
  unfold keyed, cache_of, stages. destruct init; cbn [In]; intros H;
    repeat destruct H as [<-|H]; try contradiction; intros H2; try lia; now cbn.
Qed.

(* a handshake move of a session that has no keys yet, hence nonce 0 and nothing sent *)
Lemma with_hs_ok s sent rcvd hs' ci n' : side_ok s sent rcvd -> s_nonce s = 0 ->
  In hs' (stages (s_init s)) ->
  match ci with Some i => set_true (s_cache s) i | None => s_cache s end = cache_of (s_init s) hs' ->
  (if keyed (s_init s) hs' then n' = 16 else n' = 0) ->
  side_ok (with_hs s hs' ci n') sent rcvd.
Proof.
  intros [_ _ _ Hse Hsn Hla] H0 Hst' Hca' Hn'.
  constructor; cbn [with_hs s_init s_hs s_cache s_nonce s_last s_seen].
  - (* ok_stage *) exact Hst'.
  - (* ok_cache *) exact Hca'.
  - (* ok_nonce *) destruct (keyed _ _); [rewrite Hn'; apply N.le_refl|exact Hn'].
  - (* ok_sent *) intros c Hc. specialize (Hse c Hc). lia.
  - (* ok_seen *) exact Hsn.
  - (* ok_last *) exact Hla.
Qed.

Lemma effect_ok s m s' sent rcvd :
  side_ok s sent rcvd -> effect s m s' -> (forall c, m = MData c -> memN c rcvd = true) ->
  side_ok s' sent rcvd /\ s_init s' = s_init s /\ s_hs s <= s_hs s'.
Proof.
  intros Hok He Hm. pose proof Hok as [Hst Hca Hno Hse Hsn Hla].
  destruct He as [m|Hi Hh|Hi Hh|Hi Hh|Hi Hh|c l Hc Hh Hl].
  (* the four handshake moves: with role and stage known, what with_hs_ok asks is computed *)
  2-5: rewrite Hi, Hh in *; cbn in Hno;
    (split; [|split; [exact Hi|cbn; lia]]);
    apply with_hs_ok; rewrite ?Hi, ?Hca; cbn; auto.
  - split; [exact Hok|]. split; [reflexivity|lia].
  - destruct (can_receive_stage _ _ Hst Hh) as (H8 & Hca8 & Hk).
    rewrite Hk in Hno.
    set (n' := if s_init s && (s_hs s =? 2) then NONCE_POST_HANDSHAKE else s_nonce s).
    assert (Hn' : 16 <= n' /\ s_nonce s <= n').
    { subst n'. destruct (s_init s && (s_hs s =? 2)); cbn in Hno; unfold NONCE_POST_HANDSHAKE; lia. }
    split; [|split; [reflexivity|exact H8]].
    constructor; cbn [s_init s_hs s_cache s_nonce s_last s_seen].
    + (* ok_stage *) destruct (s_init s); cbn; auto.
    + (* ok_cache *) congruence.
    + (* ok_nonce *) replace (keyed (s_init s) 8) with true by now destruct (s_init s). apply Hn'.
    + (* ok_sent: the nonce has not decreased *) intros c0 Hc0. specialize (Hse c0 Hc0). lia.
    + (* ok_seen *) intros c0 [->|H]%memN_cons_iff; [now apply Hm|now apply Hsn].
    + (* ok_last *) rewrite memN_cons_iff. destruct Hl as [->| ->]; [now right; left|].
      destruct Hla as [H0|H]; [now left|now right; right].
Qed.

Lemma write_handshake_ok s sent rcvd : side_ok s sent rcvd -> exists r, write_handshake s = Ok r.
Proof.
  intros [Hst Hca _ _ _ _]. unfold write_handshake, cached. rewrite Hca.
  unfold stages in Hst. destruct (s_init s); cbn [In] in Hst;
    repeat destruct Hst as [<-|Hst]; try contradiction; cbn; eauto.
Qed.

Lemma deliver_ok s m sent rcvd :
  side_ok s sent rcvd -> (forall c, m = MData c -> memN c rcvd = true) ->
  exists s' o, deliver s m = Ok (s', o) /\ effect s m s' /\
               side_ok s' sent rcvd /\ s_init s' = s_init s /\ s_hs s <= s_hs s'.
Proof.
  intros Hok Hm. pose proof (deliver_spec s m) as S.
  destruct (deliver s m) as [[s' o]|e|p].
  1: exists s', o; split; [reflexivity|]; split; [exact S|]; exact (effect_ok _ _ _ _ _ Hok S Hm).
  all: destruct S as (s1 & He & Hw);
    destruct (write_handshake_ok s1 sent rcvd) as [r Hr]; [apply (effect_ok _ _ _ _ _ Hok He Hm)|];
    now destruct (Hw r).
Qed.

Lemma send_ok s s' c sent rcvd : side_ok s sent rcvd -> send s = Some (s', c) ->
  side_ok s' (c :: sent) rcvd /\ s_init s' = s_init s /\ s_hs s' = s_hs s.
Proof.
  intros [Hst Hca Hno Hse Hsn Hla] (Hcs & -> & _ & ->)%send_spec.
  rewrite (can_send_keyed s Hst) in Hcs. rewrite Hcs in Hno.
  split; [|now split].
  constructor; cbn [s_init s_hs s_cache s_nonce s_last s_seen]; auto.
  - rewrite Hcs. lia.
  - intros c [->|Hm]%memN_cons_iff; [lia|]. specialize (Hse c Hm). lia.
Qed.

(* the peer has emitted one more counter *)
Lemma side_ok_more s sent rcvd c : side_ok s sent rcvd -> side_ok s sent (c :: rcvd).
Proof.
  intros [Hst Hca Hno Hse Hsn Hla]. constructor; auto.
  intros c0 H. apply memN_cons_iff. right. now apply Hsn.
Qed.

(* a session that has emitted data has its keys *)
Lemma sent_keyed s sent rcvd c : side_ok s sent rcvd -> memN c sent = true -> keyed (s_init s) (s_hs s) = true.
Proof.
  intros [_ _ Hno Hse _ _] Hc. specialize (Hse c Hc).
  destruct (keyed _ _); [reflexivity|lia].
Qed.

(* a session refuses its own handshake messages, by the role/parity rule *)
Lemma own_ignored s m :
  In m (if s_init s then [MIH; MID] else [MRH; MRD]) -> deliver s m = Ok (s, OErr).
Proof.
  unfold deliver, read_handshake. destruct (MAX_NONCE <=? s_nonce s); [reflexivity|].
  destruct (s_init s); intros H; repeat destruct H as [<-|H]; try contradiction;
    cbn; now rewrite ?Bool.andb_false_r.
Qed.

Lemma good_pair_In a b : good_pair a b = true <-> In (a, b) good_pairs.
Proof.
  unfold good_pair. rewrite existsb_exists. split.
  - intros ([x y] & Hin & H). apply andb_prop in H as [Hx Hy].
    apply N.eqb_eq in Hx, Hy. cbn in Hx, Hy. now subst.
  - intros H. exists (a, b). cbn [fst snd]. now rewrite !N.eqb_refl.
Qed.

(* the moves of one side that keep a pair of stages good: the responder reads InitHello, the
   initiator RespHello, the responder InitDone, the initiator RespDone; the responder, then the
   initiator, accepts data *)
Lemma good_pair_moves a b : good_pair a b = true ->
  (b = 0 -> good_pair a 1 = true) /\
  (a = 0 -> 1 <= b -> good_pair 2 b = true) /\
  (b = 1 -> 2 <= a -> good_pair a 3 = true) /\
  (a = 2 -> 3 <= b -> good_pair 4 b = true) /\
  (2 <= b -> 4 <= a -> good_pair a 8 = true) /\
  (2 <= a -> 3 <= b -> good_pair 8 b = true).
Proof.
  intros H. apply good_pair_In in H. cbn [In good_pairs] in H.
  repeat destruct H as [H|H]; try contradiction; injection H as <- <-;
    repeat split; intros; first [reflexivity|lia].
Qed.

(* Inv is: the two roles, good_pair of the stages, and side_ok of each side with the other's counters *)
Lemma inv_sides i r fi fr : Inv (mkP i r fi fr) ->
  s_init i = true /\ s_init r = false /\ good_pair (s_hs i) (s_hs r) = true /\
  side_ok i fi fr /\ side_ok r fr fi.
Proof.
  intros [Hi Hr Hg Hci Hcr Hni Hnr Hfi Hfr Hsr Hsi Hlr Hli]. unfold ih, rh in *. cbn [p_i p_r p_from_i p_from_r] in *.
  assert (Hst : In (s_hs i) (stages true) /\ In (s_hs r) (stages false)).
  { pose proof Hg as Ht. apply good_pair_In in Ht. cbn [In good_pairs] in Ht.
    repeat destruct Ht as [Ht|Ht]; try contradiction; injection Ht as <- <-; cbn; auto 10. }
  destruct Hst as [Hsti Hstr].
  split; [exact Hi|]. split; [exact Hr|]. split; [exact Hg|].
  split; constructor; rewrite ?Hi, ?Hr; assumption.
Qed.

Lemma inv_intro i r fi fr :
  s_init i = true -> s_init r = false -> good_pair (s_hs i) (s_hs r) = true ->
  side_ok i fi fr -> side_ok r fr fi -> Inv (mkP i r fi fr).
Proof.
  intros Hi Hr Hg [Hsti Hci Hni Hfi Hsi Hli] [Hstr Hcr Hnr Hfr Hsr Hlr].
  rewrite Hi in *. rewrite Hr in *. now constructor.
Qed.

(* the stage a side must have reached for its message to exist *)
Lemma emitted_i i r fi fr m : s_init i = true -> side_ok i fi fr -> emitted_by_i (mkP i r fi fr) m = true ->
  match m with
  | MIH => True | MID => 2 <= s_hs i | MData c => 4 <= s_hs i /\ memN c fi = true | _ => False end.
Proof.
  intros Hi Hok. destruct m as [| | | |c]; cbn; try easy.
  - unfold cached. rewrite (ok_cache _ _ _ Hok), Hi. cbn. lia.
  - intros Hc. pose proof (sent_keyed _ _ _ _ Hok Hc) as Hk. rewrite Hi in Hk. cbn in Hk. split; [lia|exact Hc].
Qed.

Lemma emitted_r i r fi fr m : s_init r = false -> side_ok r fr fi -> emitted_by_r (mkP i r fi fr) m = true ->
  match m with
  | MRH => 1 <= s_hs r | MRD => 3 <= s_hs r | MData c => 3 <= s_hs r /\ memN c fr = true | _ => False end.
Proof.
  intros Hr Hok. destruct m as [| | | |c]; cbn; try easy.
  - unfold cached. rewrite (ok_cache _ _ _ Hok), Hr. cbn. lia.
  - unfold cached. rewrite (ok_cache _ _ _ Hok), Hr. cbn. lia.
  - intros Hc. pose proof (sent_keyed _ _ _ _ Hok Hc) as Hk. rewrite Hr in Hk. cbn in Hk. split; [lia|exact Hc].
Qed.

(* what every step from p does: it succeeds, keeps the invariant, and neither stage regresses *)
Definition advances (p : pair) (r : result pair) : Prop :=
  exists p', r = Ok p' /\ Inv p' /\ ih p <= ih p' /\ rh p <= rh p'.

Lemma advances_ok p p' : Inv p' -> ih p <= ih p' -> rh p <= rh p' -> advances p (Ok p').
Proof. intros H Hi Hr. exists p'. auto. Qed.

Lemma stay p : Inv p -> advances p (Ok p).
Proof. intros H. apply advances_ok; [exact H|apply N.le_refl..]. Qed.

Lemma step_inv p a : Inv p -> advances p (step p a).
Proof.
  destruct p as [i r fi fr]. intros Hinv.
  pose proof Hinv as (Hi & Hr & Hg & Oi & Or)%inv_sides.
  (* deliver_ok and send_ok are the step of one side; the cases come in pairs only for which
     component of the pair the new session goes back into, and for the moves of the table, which
     differ by role *)
  destruct a as [m|m|m|m| |]; cbn [step p_i p_r p_from_i p_from_r].
  - (* to the responder: one of its three moves, as far as the initiator's stage allows *)
    destruct (emitted_by_i _ m) eqn:Em; [|exact (stay _ Hinv)].
    apply emitted_i in Em; [|assumption..].
    destruct (deliver_ok r m fr fi Or) as (r' & o & -> & Ed & Or' & Hr' & Hle).
    { now intros c ->. }
    apply advances_ok; [|apply N.le_refl|exact Hle].
    apply inv_intro; [exact Hi|congruence| |exact Oi|exact Or'].
    destruct (good_pair_moves _ _ Hg) as (M1 & _ & M3 & _ & M5 & _).
    (* no move: Hg as it is; the initiator's two moves: excluded by the role; left are InitHello, InitDone
       and data, whose bound on the initiator's stage is what emitted_i made of Em *)
    destruct Ed as [m|Ri Rh|Ri Rh|Ri Rh|Ri Rh|c l Hc Rh Hl]; cbn [s_hs with_hs]; try congruence.
    + now apply M1.
    + now apply M3.
    + now apply M5.
  - destruct (emitted_by_r _ m) eqn:Em; [|exact (stay _ Hinv)].
    apply emitted_r in Em; [|assumption..].
    destruct (deliver_ok i m fi fr Oi) as (i' & o & -> & Ed & Oi' & Hi' & Hle).
    { now intros c ->. }
    apply advances_ok; [|exact Hle|apply N.le_refl].
    apply inv_intro; [congruence|exact Hr| |exact Oi'|exact Or].
    destruct (good_pair_moves _ _ Hg) as (_ & M2 & _ & M4 & _ & M6).
    destruct Ed as [m|Ri Rh|Ri Rh|Ri Rh|Ri Rh|c l Hc Rh Hl]; cbn [s_hs with_hs]; try congruence.
    + now apply M2.
    + now apply M4.
    + now apply M6.
  - (* reflections: handshake messages are refused, own data is not decrypted *)
    destruct (emitted_by_i _ m) eqn:Em; [|exact (stay _ Hinv)].
    destruct m as [| | | |c]; try discriminate Em.
    1,2: rewrite own_ignored by (rewrite Hi; cbn; auto).
    all: exact (stay _ Hinv).
  - destruct (emitted_by_r _ m) eqn:Em; [|exact (stay _ Hinv)].
    destruct m as [| | | |c]; try discriminate Em.
    1,2: rewrite own_ignored by (rewrite Hr; cbn; auto).
    all: exact (stay _ Hinv).
  - destruct (send i) as [[i' c]|] eqn:Es; [|exact (stay _ Hinv)].
    destruct (send_ok _ _ _ _ _ Oi Es) as (Oi' & Hi' & Hh').
    apply advances_ok; [|now apply N.eq_le_incl|apply N.le_refl].
    apply inv_intro; [congruence|exact Hr|now rewrite Hh'|exact Oi'|apply side_ok_more, Or].
  - destruct (send r) as [[r' c]|] eqn:Es; [|exact (stay _ Hinv)].
    destruct (send_ok _ _ _ _ _ Or Es) as (Or' & Hr' & Hh').
    apply advances_ok; [|apply N.le_refl|now apply N.eq_le_incl].
    apply inv_intro; [exact Hi|congruence|now rewrite Hh'|apply side_ok_more, Oi|exact Or'].
Qed.

(* every run from a pair satisfying Inv succeeds (it neither panics nor fails) *)
Lemma run_advances acts : forall p, Inv p -> advances p (run p acts).
Proof.
  induction acts as [|a t IH]; intros p Hinv; cbn [run]; [exact (stay p Hinv)|].
  destruct (step_inv p a Hinv) as (p1 & -> & Hinv1 & Hi1 & Hr1). cbn [bind].
  destruct (IH p1 Hinv1) as (p' & -> & Hinv' & Hi' & Hr'). apply advances_ok; [exact Hinv'|lia..].
Qed.

Theorem run_inv acts : forall p, Inv p ->
  (forall s, run p acts <> Panic s) /\
  forall p', run p acts = Ok p' -> Inv p' /\ ih p <= ih p' /\ rh p <= rh p'.
Proof.
  intros p Hinv. destruct (run_advances acts p Hinv) as (p1 & -> & H1).
  split; [discriminate|]. now intros p' [= <-].
Qed.

(* recovery: the fair suffix makes both sides ready *)
Theorem recovers p : Inv p -> under_limit p ->
  exists p', fair_suffix p = Ok p' /\ Inv p' /\ under_limit p' /\
             is_ready (p_i p') = true /\ is_ready (p_r p') = true.
Proof.
  intros Hinv Hu.
  (* the suffix is made of steps, so it succeeds and keeps the invariant *)
  assert (S : forall q (o : option msg) f, Inv q ->
            exists q', match o with Some m => step q (f m) | None => Ok q end = Ok q' /\ Inv q').
  { intros q [m|] f H; [|eauto]. destruct (step_inv q (f m) H) as (q' & E & H' & _). eauto. }
  assert (R : forall q, Inv q -> exists q', fair_round q = Ok q' /\ Inv q').
  { intros q H. unfold fair_round.
    destruct (S q (current_msg (p_i q)) ToR H) as (q1 & -> & H1). cbn [bind].
    destruct (S q1 (current_msg (p_r q1)) ToI H1) as (q2 & -> & H2). cbn [bind]. eauto. }
  assert (E : exists p', fair_suffix p = Ok p' /\ Inv p').
  { unfold fair_suffix. destruct (R p Hinv) as (p1 & -> & H1). cbn [bind]. exact (R p1 H1). }
  destruct E as (p' & E & Hinv'). clear S R.
  exists p'. split; [exact E|]. split; [exact Hinv'|]. clear Hinv'. revert E.
  (* Where it leads: by evaluation from each of the eight pairs of stages.  The farthest pair (0, 0) needs
     InitHello, RespHello, InitDone, RespDone in that order, and two rounds of "the initiator's current message
     to the responder, then the responder's to the initiator" deliver exactly that; every other pair of the
     table needs a suffix of it, and the other deliveries, before or after it, are repeats without effect (a
     side at stage 4 or 8 has no message to deliver).  Hmi and Hmr (from under_limit) settle Deliver's
     MAX_NONCE test on the nonces, which stay symbolic; at the end a nonce is either the one assumed under the
     limit or has been reset to 16. *)
  destruct p as [[ii hi ci ni li si] [ir hr cr nr lr sr] fi fr].
  pose proof Hu as [Hmi%N.leb_gt Hmr%N.leb_gt]. destruct Hu as [Hui Hur].
  destruct Hinv as [Hi Hr Hg Hci Hcr _ _ _ _ _ _ _ _].
  unfold ih, rh in *. cbn [p_i p_r s_init s_hs s_cache s_nonce] in *. subst ii ir ci cr.
  apply good_pair_In in Hg. cbn [In good_pairs] in Hg.
  repeat destruct Hg as [Hg|Hg]; try contradiction; injection Hg as <- <-;
    unfold fair_suffix, fair_round, current_msg, step, deliver;
    repeat (first [rewrite Hmi | rewrite Hmr | progress cbn]);
    intros E; injection E as <-;
    (split; [split; cbn; first [assumption|reflexivity]|split; reflexivity]).
Qed.

(* data flows once both sides are ready; one direction: s sends, t receives *)
Lemma flows s t sent rcvd : side_ok s sent rcvd -> side_ok t rcvd sent ->
  s_nonce s < MAX_NONCE -> s_nonce t < MAX_NONCE -> is_ready s = true -> is_ready t = true ->
  exists s' c, send s = Some (s', c) /\ 16 <= c /\ exists t', deliver t (MData c) = Ok (t', OApp).
Proof.
  intros Hs Ht Hls Hlt Hrs Hrt.
  apply andb_prop in Hrs as [Hcs _]. apply andb_prop in Hrt as [_ Hcr].
  assert (H16 : 16 <= s_nonce s).
  { pose proof (ok_nonce _ _ _ Hs) as Hno.
    rewrite (can_send_keyed s (ok_stage _ _ _ Hs)) in Hcs. now rewrite Hcs in Hno. }
  (* the fresh counter exceeds everything t has accepted *)
  assert (Hfresh : s_last t < s_nonce s).
  { destruct (ok_last _ _ _ Ht) as [->|Hm]; [lia|]. apply (ok_sent _ _ _ Hs), (ok_seen _ _ _ Ht), Hm. }
  clear Hs Ht. eexists _, (s_nonce s). unfold send, deliver, validate_counter. rewrite Hcs, Hcr.
  destruct (N.leb_spec MAX_NONCE (s_nonce s)); [lia|]. destruct (N.leb_spec MAX_NONCE (s_nonce t)); [lia|].
  destruct (N.ltb_spec (s_nonce s) 4); [lia|]. destruct (N.ltb_spec (s_last t) (s_nonce s)); [|lia].
  cbn [negb]. split; [reflexivity|]. split; [exact H16|]. eexists. reflexivity.
Qed.

Theorem dataflow p : Inv p -> under_limit p -> is_ready (p_i p) = true -> is_ready (p_r p) = true ->
  (exists si c, send (p_i p) = Some (si, c) /\ 16 <= c /\
                exists sr, deliver (p_r p) (MData c) = Ok (sr, OApp)) /\
  (exists sr c, send (p_r p) = Some (sr, c) /\ 16 <= c /\
                exists si, deliver (p_i p) (MData c) = Ok (si, OApp)).
Proof.
  destruct p as [i r fi fr]. intros (_ & _ & _ & Oi & Or)%inv_sides [Hui Hur] Hri Hrr.
  split; [apply (flows i r fi fr)|apply (flows r i fr fi)]; assumption.
Qed.

(* a Deliver that leaves the stage unchanged leaves the answer of write_handshake unchanged *)
Theorem handshake_idempotent s m s' o : deliver s m = Ok (s', o) -> s_hs s' = s_hs s ->
  write_handshake s' = write_handshake s.
Proof.
  intros H. pose proof (deliver_spec s m) as He. rewrite H in He.
  destruct He as [m|_ Hh|_ Hh|_ Hh|_ Hh|c l _ _ _]; cbn [with_hs s_hs]; try (rewrite Hh; discriminate).
  - reflexivity.
  - intros H8. unfold write_handshake. cbn [s_hs]. now rewrite <- H8.
Qed.
