(* C01: faithfulness composes.  A layer is sound when, fed only genuine wire
   messages of the payloads in its told-set (any order, duplicates, omissions),
   it hands up only (source, payload) pairs of that told-set.  Soundness of the
   layers of a stack gives soundness of the stack. *)
From P2PV Require Import Lib.Base Lib.Varint Model.Mux Model.Frag Model.Layers
  Proofs.BaseP Proofs.MuxP Proofs.FragP.
Open Scope N_scope.

Definition told := bytes -> bytes -> Prop.       (* source -> payload -> was told *)

Record slayer := mkSLayer {
  sl :> rlayer;
  led : Type;                                    (* the layer's bookkeeping of what was sent through it *)
  led_ok : led -> told -> Prop;                  (* the bookkeeping only contains told payloads *)
  wire_ok : led -> bytes -> bytes -> Prop;       (* source -> wire: a genuine wire message *)
  sl_sound : forall a (L : told) inp, led_ok a L ->
      Forall (fun sw => wire_ok a (fst sw) (snd sw)) inp ->
      forall src p, In (src, p) (deliveries sl inp) -> L src p }.

Lemma deliveries_compose (up lo : rlayer) : forall inp su slo,
  deliveries_from (compose up lo) (su, slo) inp =
  deliveries_from up su (deliveries_from lo slo inp).
Proof.
  induction inp as [|[src w] t IH]; intros su slo; [reflexivity|].
  cbn [deliveries_from compose rrecv fst snd].
  destruct (rrecv lo slo src w) as [l' [m|]] eqn:El.
  - cbn [deliveries_from]. destruct (rrecv up su src m) as [u' [d|]] eqn:Eu; cbn [fst snd]; now rewrite IH.
  - apply IH.
Qed.

Lemma deliveries_in_forall (R : rlayer) (P : bytes -> bytes -> Prop) inp :
  (forall src p, In (src, p) (deliveries R inp) -> P src p) ->
  Forall (fun sw => P (fst sw) (snd sw)) (deliveries R inp).
Proof. intros H. apply Forall_forall. intros [s p] Hin. now apply H. Qed.

(* the induction that the mux, fragswarm and mbapp instances share: each supplies its state invariant I, its
   admissible inputs A and what it may hand up P.  id_slayer's is written out in its definition; the schedules
   with cleanups (run_sched, mb_run_sched) have their own. *)
Lemma deliveries_from_sound (R : rlayer) (I : rst R -> Prop) (A P : bytes -> bytes -> Prop) :
  (forall s src w, I s -> A src w ->
     I (fst (rrecv R s src w)) /\ forall p, snd (rrecv R s src w) = Some p -> P src p) ->
  forall inp s, I s -> Forall (fun sw => A (fst sw) (snd sw)) inp ->
  forall src p, In (src, p) (deliveries_from R s inp) -> P src p.
Proof.
  intros Hstep. induction inp as [|[s0 w] t IH]; intros s Hs Hall src p Hin; [contradiction|].
  inversion Hall as [|? ? Hw Ht]; subst. destruct (Hstep s s0 w Hs Hw) as [Hs' Hd].
  cbn [deliveries_from] in Hin. destruct (rrecv R s s0 w) as [s' [d|]]; cbn [fst snd] in *.
  - destruct Hin as [[= <- <-]|Hin]; [now apply Hd|now apply (IH s')].
  - now apply (IH s').
Qed.

(* compose_s and the instances below carry their soundness proof and are closed with Defined all the same: sl,
   led_ok and wire_ok of a stack have to compute (stack_slayer_rlayer, the statement of stack_faithful).
   In compose_s the told-set of the lower layer is the set of genuine wires of the upper one. *)
Definition compose_s (up lo : slayer) : slayer.
Proof.
  refine (mkSLayer (compose up lo) (led up * led lo)
            (fun a L => led_ok up (fst a) L /\ led_ok lo (snd a) (wire_ok up (fst a)))
            (fun a => wire_ok lo (snd a)) _).
  intros [a b] L inp [Hu Hl] Hall src p Hin. cbn [fst snd] in *.
  unfold deliveries in Hin. cbn [rinit compose] in Hin. rewrite deliveries_compose in Hin.
  eapply (sl_sound up a L _ Hu); [|exact Hin].
  apply (deliveries_in_forall lo). intros s w Hw. exact (sl_sound lo b _ inp Hl Hall s w Hw).
Defined.

(* multiplexer channel c: genuine wires are frames of told payloads on c, or
   frames of anything on other valid channels (other users of the same mux) *)
Definition mux_wire (k : kind) (c : chan) (a : told) (src w : bytes) : Prop :=
  (exists x, a src x /\ w = frame k c x) \/
  (exists c' x, c' <> c /\ valid_chan k c' = true /\ w = frame k c' x).

Lemma mux_deliveries k c (a : told) : valid_chan k c = true -> forall inp,
  Forall (fun sw => mux_wire k c a (fst sw) (snd sw)) inp ->
  forall src p, In (src, p) (deliveries (mux_rlayer k c) inp) -> a src p.
Proof.
  intros Hc inp. apply (deliveries_from_sound (mux_rlayer k c) (fun _ => True) (mux_wire k c a) a); [|exact I].
  intros s src w _ Hw. split; [exact I|]. cbn [rrecv mux_rlayer].
  destruct Hw as [(x & Hx & ->)|(c' & x & Hne & Hc' & ->)]; rewrite roundtrip by assumption; cbn [snd].
  - destruct (chan_eqb_spec c c); [|congruence]. now intros p [= <-].
  - destruct (chan_eqb_spec c c'); [congruence|discriminate].
Qed.

Definition mux_slayer (k : kind) (c : chan) (Hc : valid_chan k c = true) : slayer.
Proof.
  refine (mkSLayer (mux_rlayer k c) told (fun a L => forall s p, a s p -> L s p) (mux_wire k c) _).
  intros a L inp Ha Hall src p Hin. apply Ha. eapply mux_deliveries; eauto.
Defined.

Lemma frag_deliveries (S : list sent) : NoDup (map s_key S) -> forall inp st seen,
  inv S seen st -> Forall (fun sw => genuine S (fst sw) (snd sw)) inp ->
  forall src p, In (src, p) (deliveries_from frag_rlayer st inp) ->
  exists m, In m S /\ s_src m = src /\ s_payload m = p.
Proof.
  intros Hnd inp st seen Hinv.
  apply (deliveries_from_sound frag_rlayer (fun st => exists seen, inv S seen st) (genuine S)); [|eauto].
  intros st0 src w [sn Hi] Hw. destruct (frag_recv_genuine S sn st0 src w Hnd Hi Hw) as (st' & d & Hr & Hi' & Hd).
  cbn [rrecv frag_rlayer]. rewrite Hr. split; [eauto|].
  intros p Hp. destruct (Hd p Hp) as (m & A & B & C & _). eauto.
Qed.

(* fragswarm: bookkeeping is the list of sent messages (source, id, chunks) with
   distinct (source, id); genuine wires are their fragments from their source *)
Definition frag_slayer : slayer.
Proof.
  refine (mkSLayer frag_rlayer (list sent)
            (fun S L => NoDup (map s_key S) /\ forall m, In m S -> L (s_src m) (s_payload m))
            genuine _).
  intros S L inp [Hnd HL] Hall src p Hin.
  destruct (frag_deliveries S Hnd inp [] [] (inv_init S) Hall src p Hin) as (m & A & <- & <-). now apply HL.
Defined.

Definition id_slayer : slayer.
Proof.
  refine (mkSLayer id_rlayer told (fun a L => forall s p, a s p -> L s p) (fun a => a) _).
  intros a L inp Ha Hall src p Hin. apply Ha. unfold deliveries in Hin. cbn [rinit id_rlayer] in Hin.
  induction inp as [|[s w] t IH]; [contradiction|]. inversion Hall; subst.
  cbn [deliveries_from rrecv id_rlayer] in Hin. destruct Hin as [E|Hin]; [now injection E as <- <-|now apply IH].
Defined.

Fixpoint stack_slayer (ls : list slayer) : slayer :=
  match ls with
  | [] => id_slayer
  | l :: below => compose_s l (stack_slayer below)
  end.

Lemma stack_slayer_rlayer ls : sl (stack_slayer ls) = stack_rlayer (map sl ls).
Proof. induction ls as [|l t IH]; [reflexivity|]. cbn [stack_slayer stack_rlayer map compose_s sl]. now rewrite IH. Qed.

Theorem stack_faithful (ls : list slayer) : forall a (L : told) inp,
  led_ok (stack_slayer ls) a L ->
  Forall (fun sw => wire_ok (stack_slayer ls) a (fst sw) (snd sw)) inp ->
  forall src p, In (src, p) (deliveries (stack_rlayer (map sl ls)) inp) -> L src p.
Proof. intros a L inp Ha Hall src p Hin. rewrite <- stack_slayer_rlayer in Hin. eapply sl_sound; eauto. Qed.
