(* C18: the cache is a faithful bounded map that sheds the farthest first.
   This file: entry lists of one bucket, the bucket list seen as a total function
   from indices to buckets, the invariant and what keeps a bucket well-formed. *)
From P2PV Require Import Lib.Base Model.Distance Model.Cache Proofs.BaseP.
From Coq Require Import Lia ZifyBool ZifyN ZifyNat.
Open Scope Z_scope.

Lemma lenZ_nil {A} : lenZ (@nil A) = 0.
Proof. reflexivity. Qed.
Lemma lenZ_cons {A} (x : A) l : lenZ (x :: l) = lenZ l + 1.
Proof. unfold lenZ. rewrite lenN_cons. lia. Qed.
Lemma lenZ_app {A} (a b : list A) : lenZ (a ++ b) = lenZ a + lenZ b.
Proof. unfold lenZ. rewrite lenN_app. lia. Qed.
Lemma lenZ_nonneg {A} (l : list A) : 0 <= lenZ l.
Proof. unfold lenZ. lia. Qed.
Lemma lenZ_length {A} (l : list A) : lenZ l = Z.of_nat (length l).
Proof. unfold lenZ. rewrite lenN_spec. lia. Qed.

Definition keys (es : list entry) : list bytes := map e_key es.

(* how many entries a lookup result stands for *)
Definition occ (o : option entry) : Z := match o with Some _ => 1 | None => 0 end.

Lemma b_find_some es k e : b_find es k = Some e -> In e es /\ e_key e = k.
Proof.
  induction es as [|h t IH]; cbn [b_find]; [discriminate|].
  destruct (bytes_eqb_spec (e_key h) k) as [Hk|Hk].
  - intros H; injection H as <-. split; [now left|assumption].
  - intros H. destruct (IH H). split; [now right|assumption].
Qed.

Lemma b_find_none es k : b_find es k = None <-> ~ In k (keys es).
Proof.
  induction es as [|h t IH]; cbn [b_find keys map In]; [tauto|].
  destruct (bytes_eqb_spec (e_key h) k) as [Hk|Hk].
  - split; [discriminate|]. intros H; exfalso; apply H; now left.
  - fold (keys t). rewrite IH. tauto.
Qed.

Lemma b_find_in es e : NoDup (keys es) -> In e es -> b_find es (e_key e) = Some e.
Proof.
  induction es as [|h t IH]; cbn [keys map b_find]; intros Hnd Hin; [contradiction|].
  inversion Hnd as [|? ? Hnot Hnd']; subst.
  destruct Hin as [->|Hin].
  - now rewrite bytes_eqb_refl.
  - destruct (bytes_eqb_spec (e_key h) (e_key e)) as [Hk|Hk].
    + exfalso. apply Hnot. rewrite Hk. now apply in_map.
    + now apply IH.
Qed.

Lemma b_replace_find es n k :
  b_find (b_replace es n) k = if bytes_eqb (e_key n) k then Some n else b_find es k.
Proof.
  induction es as [|h t IH]; cbn [b_replace b_find].
  - reflexivity.
  - destruct (bytes_eqb_spec (e_key h) (e_key n)) as [Hhn|Hhn]; cbn [b_find].
    + rewrite Hhn. destruct (bytes_eqb (e_key n) k); reflexivity.
    + destruct (bytes_eqb_spec (e_key h) k) as [Hk|Hk].
      * destruct (bytes_eqb_spec (e_key n) k); [congruence|reflexivity].
      * exact IH.
Qed.

Lemma b_replace_len es n : lenZ (b_replace es n) = lenZ es - occ (b_find es (e_key n)) + 1.
Proof.
  induction es as [|h t IH]; cbn [b_replace b_find]; [reflexivity|].
  destruct (bytes_eqb (e_key h) (e_key n)); rewrite !lenZ_cons; cbn [occ]; lia.
Qed.

Lemma b_replace_keys es n :
  keys (b_replace es n) = match b_find es (e_key n) with Some _ => keys es | None => keys es ++ [e_key n] end.
Proof.
  induction es as [|h t IH]; cbn [b_replace b_find keys map]; [reflexivity|].
  destruct (bytes_eqb_spec (e_key h) (e_key n)) as [Hk|Hk]; cbn [keys map].
  - now rewrite Hk.
  - fold (keys (b_replace t n)). fold (keys t). rewrite IH. destruct (b_find t (e_key n)); reflexivity.
Qed.

Lemma b_replace_nodup es n : NoDup (keys es) -> NoDup (keys (b_replace es n)).
Proof.
  intros H. rewrite b_replace_keys. destruct (b_find es (e_key n)) eqn:E; [assumption|].
  apply NoDup_snoc; [assumption|]. now apply b_find_none.
Qed.

Lemma b_replace_in es n e : In e (b_replace es n) -> e = n \/ In e es.
Proof.
  induction es as [|h t IH]; cbn [b_replace].
  - intros [<-|[]]. now left.
  - destruct (bytes_eqb (e_key h) (e_key n)).
    + intros [<-|Hin]; [now left|right; now right].
    + intros [<-|Hin]; [right; now left|]. destruct (IH Hin); [now left|right; now right].
Qed.

Lemma filter_find (f : entry -> bool) es k : NoDup (keys es) ->
  b_find (filter f es) k = match b_find es k with
                           | Some e => if f e then Some e else None
                           | None => None end.
Proof.
  induction es as [|h t IH]; cbn [filter b_find keys map]; intros Hnd; [reflexivity|].
  inversion Hnd as [|? ? Hnot Hnd']; subst.
  destruct (bytes_eqb_spec (e_key h) k) as [Hk|Hk].
  - destruct (f h) eqn:Hf; cbn [b_find].
    + now rewrite Hk, bytes_eqb_refl.
    + rewrite IH by assumption.
      assert (b_find t k = None) as -> by (apply b_find_none; now rewrite <- Hk). reflexivity.
  - destruct (f h); cbn [b_find]; [|now apply IH].
    destruct (bytes_eqb_spec (e_key h) k); [contradiction|now apply IH].
Qed.

Definition other_key (k : bytes) (e : entry) : bool := negb (bytes_eqb (e_key e) k).

(* with distinct keys, removing the first entry under k removes all of them: a filter *)
Lemma b_remove_filter es k : NoDup (keys es) -> b_remove es k = filter (other_key k) es.
Proof.
  unfold other_key.
  induction es as [|h t IH]; cbn [b_remove filter keys map]; intros Hnd; [reflexivity|].
  inversion Hnd as [|? ? Hnot Hnd']; subst.
  destruct (bytes_eqb_spec (e_key h) k) as [Hk|Hk]; cbn [negb].
  - symmetry. apply filter_all. intros x Hx.
    destruct (bytes_eqb_spec (e_key x) k) as [Hxk|]; [|reflexivity].
    exfalso. apply Hnot. rewrite Hk, <- Hxk. now apply in_map.
  - f_equal. now apply IH.
Qed.

Lemma b_remove_find es k k' : NoDup (keys es) ->
  b_find (b_remove es k) k' = if bytes_eqb k k' then None else b_find es k'.
Proof.
  intros Hnd. rewrite b_remove_filter, filter_find by assumption. unfold other_key.
  destruct (b_find es k') as [e|] eqn:E; [|destruct (bytes_eqb k k'); reflexivity].
  apply b_find_some in E as [_ <-].
  destruct (bytes_eqb_spec (e_key e) k) as [->|Hne]; [now rewrite bytes_eqb_refl|].
  destruct (bytes_eqb_spec k (e_key e)); [congruence|reflexivity].
Qed.

Lemma b_remove_len es k : lenZ (b_remove es k) = lenZ es - occ (b_find es k).
Proof.
  induction es as [|h t IH]; cbn [b_remove b_find]; [reflexivity|].
  destruct (bytes_eqb (e_key h) k); rewrite !lenZ_cons; cbn [occ]; lia.
Qed.

(* The bucket list as a total function: bucket n, empty beyond the end of the
   list.  Under this view extend changes nothing, and put_bucket (what Update
   does: extend, then overwrite) is a function update, whether or not the list
   had to grow. *)
Definition bucket_at (bs : list bucket) (n : nat) : bucket := nth n bs empty_bucket.

Definition put_bucket (bs : list bucket) (n : nat) (b : bucket) : list bucket :=
  set_nth (extend bs n) n b.

Lemma bucket_at_nth_error bs n b : nth_error bs n = Some b -> bucket_at bs n = b.
Proof. apply nth_error_nth. Qed.

Lemma bucket_at_beyond bs n : (length bs <= n)%nat -> bucket_at bs n = empty_bucket.
Proof. apply nth_overflow. Qed.

Lemma nth_error_bucket_at bs n : (n < length bs)%nat -> nth_error bs n = Some (bucket_at bs n).
Proof. apply nth_error_nth'. Qed.

Lemma bucket_at_map (f : bucket -> bucket) bs n : f empty_bucket = empty_bucket ->
  bucket_at (map f bs) n = f (bucket_at bs n).
Proof. intros E. unfold bucket_at. rewrite <- E at 1. apply map_nth. Qed.

Lemma get_bucket_cases c k :
  get_bucket c k = Some (bucket_at (c_buckets c) (bidx c k)) \/
  (get_bucket c k = None /\ bucket_at (c_buckets c) (bidx c k) = empty_bucket).
Proof.
  unfold get_bucket. destruct (Nat.lt_ge_cases (bidx c k) (length (c_buckets c))) as [H|H].
  - left. now apply nth_error_bucket_at.
  - right. split; [now apply nth_error_None|now apply bucket_at_beyond].
Qed.

Lemma lookup_at c k : lookup c k = b_find (b_ents (bucket_at (c_buckets c) (bidx c k))) k.
Proof. unfold lookup. now destruct (get_bucket_cases c k) as [->|[-> ->]]. Qed.

Lemma set_nth_nth {A} (l : list A) n x m :
  nth_error (set_nth l n x) m = if Nat.eqb m n then (match nth_error l n with Some _ => Some x | None => None end)
                                else nth_error l m.
Proof.
  revert n m; induction l as [|h t IH]; intros n m; cbn [set_nth].
  - destruct (Nat.eqb m n); destruct n, m; reflexivity.
  - destruct n as [|n], m as [|m]; cbn [nth_error Nat.eqb]; try reflexivity. apply IH.
Qed.

Lemma set_nth_length {A} (l : list A) n x : length (set_nth l n x) = length l.
Proof. revert n; induction l as [|h t IH]; intros [|n]; cbn [set_nth length]; auto. Qed.

Lemma extend_length bs n : (n < length (extend bs n))%nat.
Proof. unfold extend. rewrite app_length, repeat_length. lia. Qed.

Lemma bucket_at_extend bs n m : bucket_at (extend bs n) m = bucket_at bs m.
Proof.
  unfold bucket_at, extend. destruct (Nat.lt_ge_cases m (length bs)) as [H|H].
  - now apply app_nth1.
  - rewrite app_nth2, nth_repeat, nth_overflow by assumption. reflexivity.
Qed.

Lemma nth_error_extend bs n : nth_error (extend bs n) n = Some (bucket_at bs n).
Proof. rewrite <- (bucket_at_extend bs n n). apply nth_error_bucket_at, extend_length. Qed.

Lemma bucket_at_put bs n b m :
  bucket_at (put_bucket bs n b) m = if Nat.eqb m n then b else bucket_at bs m.
Proof.
  unfold put_bucket. pose proof (extend_length bs n) as Hn. rewrite <- (bucket_at_extend bs n m).
  destruct (nth_error (set_nth (extend bs n) n b) m) as [x|] eqn:E.
  - rewrite (bucket_at_nth_error _ _ _ E). rewrite set_nth_nth, nth_error_extend in E.
    destruct (Nat.eqb m n); [congruence|]. symmetry. now apply bucket_at_nth_error.
  - apply nth_error_None in E. rewrite bucket_at_beyond by assumption.
    rewrite set_nth_length in E. destruct (Nat.eqb_spec m n); [lia|]. now rewrite bucket_at_beyond.
Qed.

Lemma len_contents_set_nth bs n b' : (n < length bs)%nat ->
  lenZ (flat_map b_ents (set_nth bs n b')) = lenZ (flat_map b_ents bs) - lenZ (b_ents (bucket_at bs n)) + lenZ (b_ents b').
Proof.
  revert n; induction bs as [|h t IH]; intros [|n] H; cbn [length] in H; try lia;
    cbn [set_nth flat_map bucket_at nth]; rewrite !lenZ_app.
  - lia.
  - fold (bucket_at t n). rewrite IH by lia. lia.
Qed.

Lemma contents_extend bs n : flat_map b_ents (extend bs n) = flat_map b_ents bs.
Proof.
  unfold extend. rewrite flat_map_app. replace (flat_map b_ents (repeat empty_bucket _)) with (@nil entry).
  - apply app_nil_r.
  - induction (S n - length bs)%nat; cbn; auto.
Qed.

Lemma len_contents_put bs n b' :
  lenZ (flat_map b_ents (put_bucket bs n b')) = lenZ (flat_map b_ents bs) - lenZ (b_ents (bucket_at bs n)) + lenZ (b_ents b').
Proof.
  unfold put_bucket. rewrite len_contents_set_nth by apply extend_length.
  now rewrite contents_extend, bucket_at_extend.
Qed.

Lemma put_bucket_set bs n b : (n < length bs)%nat -> set_nth bs n b = put_bucket bs n b.
Proof.
  intros H. unfold put_bucket, extend.
  replace (S n - length bs)%nat with O by lia. now rewrite app_nil_r.
Qed.

(* bucket.minExpiresAt (updateMinExpires): zero while no entry of the bucket
   expires; otherwise only a LOWER BOUND of the non-zero ExpiresAt in the bucket,
   not their minimum: put never raises it, evict and expire leave it alone, only
   delete recomputes it.  A lower bound is all Expire's shortcut needs
   (CacheP3.skip_sound). *)
Definition minexp_ok (b : bucket) : Prop :=
  (b_minexp b = 0 -> forall e, In e (b_ents b) -> e_exp e = 0) /\
  (b_minexp b <> 0 -> forall e, In e (b_ents b) -> e_exp e <> 0 -> b_minexp b <= e_exp e).

Definition bucket_ok (L : bytes) (n : nat) (b : bucket) : Prop :=
  NoDup (keys (b_ents b)) /\
  (forall e, In e (b_ents b) -> N.to_nat (bucket_index L (e_key e)) = n) /\
  minexp_ok b.

Definition buckets_ok (L : bytes) (bs : list bucket) : Prop :=
  forall n b, nth_error bs n = Some b -> bucket_ok L n b.

Definition inv (c : cache) : Prop :=
  0 <= c_minpb c /\ 0 <= c_max c /\
  c_count c = lenZ (contents c) /\ c_count c <= c_max c /\
  buckets_ok (c_locus c) (c_buckets c).

(* the invariant without the capacity bound (holds between insertion and eviction) *)
Definition inv0 (c : cache) : Prop :=
  0 <= c_minpb c /\ 0 <= c_max c /\
  c_count c = lenZ (contents c) /\ buckets_ok (c_locus c) (c_buckets c).

Lemma inv_inv0 c : inv c <-> inv0 c /\ c_count c <= c_max c.
Proof. unfold inv, inv0. tauto. Qed.

Lemma inv_count c : inv c -> c_count c = lenZ (contents c).
Proof. intros H. apply H. Qed.

Lemma inv_bounded c : inv c -> c_count c <= c_max c.
Proof. intros H. apply H. Qed.

Lemma minexp_ok_incl es es' m : minexp_ok (mkB es m) -> incl es' es -> minexp_ok (mkB es' m).
Proof. intros [H0 H1] Hs. split; cbn; intros Hm e He; [apply H0|apply H1]; auto. Qed.

Lemma minexp_ok_upd es m e : minexp_ok (mkB es m) -> minexp_ok (mkB (e :: es) (upd_minexp m (e_exp e))).
Proof.
  intros [H0 H1]. cbn [b_ents b_minexp] in H0, H1. unfold upd_minexp.
  destruct (Z.eqb_spec (e_exp e) 0) as [He|He].
  - split; cbn [b_ents b_minexp]; intros Hm x [<-|Hx]; auto; lia.
  - destruct (Z.eqb_spec m 0) as [Hm0|Hm0]; cbn [orb].
    + split; cbn [b_ents b_minexp]; [lia|]. intros _ x [<-|Hx] Hne; [lia|].
      now rewrite (H0 Hm0 x Hx) in Hne.
    + destruct (Z.ltb_spec (e_exp e) m); split; cbn [b_ents b_minexp]; try lia.
      * intros _ x [<-|Hx] Hne; [lia|]. specialize (H1 Hm0 x Hx Hne). lia.
      * intros _ x [<-|Hx] Hne; [lia|]. now apply H1.
Qed.

Lemma minexp_ok_fold es : minexp_ok (mkB es (fold_left (fun m e => upd_minexp m (e_exp e)) es 0)).
Proof.
  (* the entries already folded are carried in done *)
  assert (G : forall done m, minexp_ok (mkB done m) ->
            minexp_ok (mkB (rev es ++ done) (fold_left (fun m e => upd_minexp m (e_exp e)) es m))).
  { induction es as [|h t IH]; intros done m Hm; cbn [fold_left rev app]; [exact Hm|].
    rewrite <- app_assoc. apply IH. now apply minexp_ok_upd. }
  apply minexp_ok_incl with (rev es ++ []).
  - apply G. split; cbn; [contradiction|intros _ ? []].
  - intros e He. rewrite app_nil_r. now apply in_rev in He.
Qed.

Lemma empty_bucket_ok L n : bucket_ok L n empty_bucket.
Proof. repeat split; cbn; try constructor; try contradiction; intros; contradiction. Qed.

(* bucket.update's effect on the bucket *)
Definition b_put (b : bucket) (e : entry) : bucket :=
  mkB (b_replace (b_ents b) e) (upd_minexp (b_minexp b) (e_exp e)).

Lemma b_put_ok L n b e :
  bucket_ok L n b -> N.to_nat (bucket_index L (e_key e)) = n -> bucket_ok L n (b_put b e).
Proof.
  intros (Hnd & Hidx & Hme) Hn. split; [|split]; cbn [b_put b_ents].
  - now apply b_replace_nodup.
  - intros x Hx. apply b_replace_in in Hx as [->|Hx]; [exact Hn|now apply Hidx].
  - apply minexp_ok_incl with (e :: b_ents b).
    + apply minexp_ok_upd. now destruct b.
    + intros x Hx. apply b_replace_in in Hx as [->|Hx]; [now left|now right].
Qed.

(* removal and expiry: the entries are filtered; m is the new minExpiresAt *)
Lemma bucket_ok_filter L n b f m :
  bucket_ok L n b -> minexp_ok (mkB (filter f (b_ents b)) m) ->
  bucket_ok L n (mkB (filter f (b_ents b)) m).
Proof.
  intros (Hnd & Hidx & _) Hme. split; [|split]; cbn [b_ents].
  - now apply NoDup_map_filter.
  - intros e He. apply filter_In in He as [He _]. now apply Hidx.
  - exact Hme.
Qed.

Lemma minexp_ok_filter b f : minexp_ok b -> minexp_ok (mkB (filter f (b_ents b)) (b_minexp b)).
Proof. intros H. apply minexp_ok_incl with (b_ents b); [now destruct b|apply incl_filter]. Qed.

Lemma bucket_at_ok L bs n : buckets_ok L bs -> bucket_ok L n (bucket_at bs n).
Proof.
  intros H. destruct (Nat.lt_ge_cases n (length bs)) as [Hn|Hn].
  - apply H. now apply nth_error_bucket_at.
  - rewrite bucket_at_beyond by assumption. apply empty_bucket_ok.
Qed.

Lemma buckets_ok_at L bs : (forall n, bucket_ok L n (bucket_at bs n)) -> buckets_ok L bs.
Proof. intros H n b Hn. rewrite <- (bucket_at_nth_error _ _ _ Hn). apply H. Qed.

Lemma buckets_ok_put L bs n b : buckets_ok L bs -> bucket_ok L n b -> buckets_ok L (put_bucket bs n b).
Proof.
  intros H Hb. apply buckets_ok_at. intros m. rewrite bucket_at_put.
  destruct (Nat.eqb_spec m n) as [->|_]; [exact Hb|now apply bucket_at_ok].
Qed.

Lemma new_cache_inv L mx mn c : new_cache L mx mn = Ok c -> inv c.
Proof.
  unfold new_cache. destruct (Z.ltb_spec mx 0) as [?|Hmx]; [discriminate|].
  destruct (Z.ltb_spec mn 0) as [?|Hmn]; [discriminate|].
  destruct (mx <? mn * 8 * lenZ L); [discriminate|].
  intros Heq; injection Heq as <-. unfold inv, contents; cbn.
  split; [lia|]. split; [lia|]. split; [reflexivity|]. split; [lia|].
  intros m b Hm. destruct m; discriminate.
Qed.

Lemma in_bucket_contents bs n e : In e (b_ents (bucket_at bs n)) -> In e (flat_map b_ents bs).
Proof.
  intros H. apply in_flat_map. exists (bucket_at bs n). split; [|assumption].
  destruct (Nat.lt_ge_cases n (length bs)) as [Hn|Hn]; [now apply nth_In|].
  rewrite bucket_at_beyond in H by assumption. contradiction.
Qed.

Lemma lookup_in c k e : lookup c k = Some e -> In e (contents c) /\ e_key e = k.
Proof.
  rewrite lookup_at. intros H. apply b_find_some in H as [Hin Hk].
  split; [now apply in_bucket_contents in Hin|assumption].
Qed.

Lemma in_contents_bucket c e : buckets_ok (c_locus c) (c_buckets c) ->
  In e (contents c) -> In e (b_ents (bucket_at (c_buckets c) (bidx c (e_key e)))).
Proof.
  intros Hb Hin. unfold contents in Hin. apply in_flat_map in Hin as (b & Hbin & He).
  apply In_nth_error in Hbin as (n & Hn). destruct (Hb n b Hn) as (_ & Hidx & _).
  unfold bidx. now rewrite (Hidx e He), (bucket_at_nth_error _ _ _ Hn).
Qed.

Lemma in_lookup c e : inv c -> In e (contents c) -> lookup c (e_key e) = Some e.
Proof.
  intros (_ & _ & _ & _ & Hb) Hin. rewrite lookup_at.
  apply b_find_in; [apply (bucket_at_ok _ _ _ Hb)|now apply in_contents_bucket].
Qed.
