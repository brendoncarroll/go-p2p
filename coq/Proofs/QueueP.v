(* swarmutil.Queue: every accepted message leaves the queue exactly once, in the
   order it was accepted; the queue never holds more than its capacity or a
   message above its MTU; after Close nothing is accepted or handed out. *)
From P2PV Require Import Lib.Base Model.Queue.
From Coq Require Import Lia.
Close Scope N_scope. Open Scope nat_scope.

Definition QInv (q : queue) (h : qhist) : Prop :=
  h_accepted h = map fst (h_left h) ++ q_items q /\
  length (q_items q) <= q_cap q /\
  Forall (fun m => length (q_payload m) <= q_mtu q) (q_items q) /\
  (q_closed q = true -> q_items q = []).

Lemma qinv_new cap mtu : QInv (new_queue cap mtu) (mkH [] []).
Proof. unfold QInv. cbn. repeat split; auto; lia. Qed.

Lemma map_fst_tag (l : list qmsg) (x : qexit) : map fst (map (fun m => (m, x)) l) = l.
Proof. induction l as [|a l IH]; cbn; [reflexivity|now rewrite IH]. Qed.

Lemma qstep_inv q h o : QInv q h -> QInv (fst (qstep q o)) (qhstep q h o).
Proof.
  intros I. pose proof I as (Ha & Hc & Hm & Hcl).
  (* besides appending a message, a call changes the queue in two ways only: the oldest
     message is taken (Receive, or a cancelled Receive whose select took one), or
     everything is dropped (Purge, Close) *)
  assert (Take : forall m t, q_items q = m :: t ->
            QInv (mkQ (q_cap q) (q_mtu q) t (q_closed q)) (mkH (h_accepted h) (h_left h ++ [(m, XReceived)]))).
  { intros m t Ei. rewrite Ei in *. unfold QInv. cbn in *. split; [|split; [|split]].
    - rewrite Ha, map_app. cbn. now rewrite <- app_assoc.
    - lia.
    - now inversion Hm.
    - intros E. now specialize (Hcl E). }
  assert (Drop : forall x c,
            QInv (mkQ (q_cap q) (q_mtu q) [] c) (mkH (h_accepted h) (h_left h ++ map (fun m => (m, x)) (q_items q)))).
  { intros x c. unfold QInv. cbn. split; [|split; [lia|split; [constructor|reflexivity]]].
    rewrite Ha, map_app, map_fst_tag. now rewrite app_nil_r. }
  unfold qhstep, qstep. destruct o as [m| |[|]| | |].
  - destruct (Nat.ltb_spec (q_mtu q) (length (q_payload m))) as [L|L]; [exact I|].
    destruct (q_closed q) eqn:Ecl; [exact I|].
    destruct (Nat.ltb_spec (length (q_items q)) (q_cap q)) as [L2|L2]; [|exact I].
    unfold QInv. cbn. rewrite app_length. cbn. split; [|split; [lia|split; [|discriminate]]].
    + now rewrite Ha, app_assoc.
    + apply Forall_app. auto.
  - destruct (q_items q) as [|m t] eqn:Ei; [destruct (q_closed q); exact I|exact (Take m t eq_refl)].
  - destruct (q_items q) as [|m t] eqn:Ei; [exact I|exact (Take m t eq_refl)].
  - destruct (q_items q); exact I.
  - apply Drop.
  - apply Drop.
  - exact I.
Qed.

Theorem qhrun_inv ops : forall q h, QInv q h -> QInv (fst (qhrun q h ops)) (snd (qhrun q h ops)).
Proof.
  induction ops as [|o t IH]; intros q h H; cbn [qhrun]; [exact H|].
  apply IH. now apply qstep_inv.
Qed.

Lemma qstep_cap q o : q_cap (fst (qstep q o)) = q_cap q.
Proof.
  unfold qstep. destruct o as [m| |[|]| | |]; try reflexivity.
  - destruct (Nat.ltb (q_mtu q) _); [reflexivity|]. destruct (q_closed q); [reflexivity|].
    destruct (Nat.ltb _ _); reflexivity.
  - destruct (q_items q); reflexivity.
  - destruct (q_items q); reflexivity.
Qed.

Lemma qhrun_cap ops : forall q h, q_cap (fst (qhrun q h ops)) = q_cap q.
Proof. induction ops as [|o t IH]; intros q h; cbn [qhrun]; [reflexivity|]. now rewrite IH, qstep_cap. Qed.

(* every history of a fresh queue: what was accepted is exactly what has left (in
   the same order) followed by what is still queued *)
Theorem queue_exactly_once cap mtu ops :
  let '(q, h) := qhrun (new_queue cap mtu) (mkH [] []) ops in
  h_accepted h = map fst (h_left h) ++ q_items q /\ length (q_items q) <= cap.
Proof.
  pose proof (qhrun_inv ops _ _ (qinv_new cap mtu)) as (Ha & Hc & _).
  rewrite qhrun_cap in Hc. destruct (qhrun _ _ ops) as [q h]. exact (conj Ha Hc).
Qed.

(* Receive hands out the oldest message still queued, and only that *)
Theorem receive_is_oldest q m q' : qstep q QReceive = (q', QGot m) -> q_items q = m :: q_items q'.
Proof.
  unfold qstep. destruct (q_items q) as [|x t]; [destruct (q_closed q); discriminate|].
  intros E. inversion E. subst. reflexivity.
Qed.

(* a closed queue accepts nothing and hands out nothing, for good *)
Theorem closed_is_final q h o : QInv q h -> q_closed q = true ->
  q_closed (fst (qstep q o)) = true /\
  match snd (qstep q o) with QAccepted | QGot _ | QWouldBlock => False | _ => True end.
Proof.
  intros [_ [_ [_ Hcl]]] E. specialize (Hcl E). unfold qstep. destruct o as [m| |taken| | |].
  - destruct (Nat.ltb (q_mtu q) _); cbn [fst snd]; rewrite E; cbn [fst snd]; auto.
  - rewrite Hcl, E. cbn. auto.
  - rewrite Hcl. destruct taken; cbn; auto.
  - cbn. auto.
  - cbn. auto.
  - cbn. auto.
Qed.

(* a refused Deliver changes nothing: the message was not enqueued *)
Theorem refused_unseen q m : snd (qstep q (QDeliver m)) = QRefused -> fst (qstep q (QDeliver m)) = q.
Proof.
  unfold qstep. destruct (Nat.ltb _ _); [reflexivity|]. destruct (q_closed q); [reflexivity|].
  destruct (Nat.ltb _ _); [discriminate|reflexivity].
Qed.

(* an accepted message is appended to the queue as given, and it is within the MTU *)
Theorem accepted_stored q m : snd (qstep q (QDeliver m)) = QAccepted ->
  q_items (fst (qstep q (QDeliver m))) = q_items q ++ [m] /\ length (q_payload m) <= q_mtu q.
Proof.
  unfold qstep. destruct (Nat.ltb_spec (q_mtu q) (length (q_payload m))); [discriminate|].
  destruct (q_closed q); [discriminate|]. destruct (Nat.ltb _ _); [|discriminate]. cbn. split; [reflexivity|lia].
Qed.

Example queue_hist_nontrivial :
  let ops := [QDeliver (1, 2, [7; 8])%N; QDeliver (1, 2, [9])%N; QReceive; QDeliver (3, 2, [1; 2; 3; 4])%N; QDeliver (3, 2, [5])%N;
              QDeliver (3, 2, [6])%N; QPurge; QDeliver (4, 2, [])%N; QClose; QDeliver (5, 2, [])%N; QReceive] in
  snd (qrun (new_queue 2 3) ops) =
    [QAccepted; QAccepted; QGot (1, 2, [7; 8])%N; QRefused; QAccepted; QRefused; QCount 2; QAccepted; QDone; QRefused; QErrClosed].
Proof. vm_compute. reflexivity. Qed.
