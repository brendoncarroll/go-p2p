(* C19: ForEach visits every entry of the cache exactly once, nearest to the query
   key first; Closest and ForEachCloser are read off that order. *)
From P2PV Require Import Lib.Base Model.Distance Model.Cache Proofs.BaseP Proofs.DistanceP.
From Coq Require Import Lia ZifyBool ZifyN ZifyNat Sorting.Sorted Sorting.Permutation.
Open Scope N_scope.

(* take_while over a sorted list with a downward-closed predicate is a filter *)
Lemma take_while_sorted {A} (R : A -> A -> Prop) (f : A -> bool) l :
  StronglySorted R l -> (forall x y, R x y -> f y = true -> f x = true) ->
  forall x, In x (take_while f l) <-> In x l /\ f x = true.
Proof.
  intros Hs Hd. induction l as [|h t IH]; intros x; cbn [take_while]; [cbn; tauto|].
  inversion Hs as [|? ? Ht Hall]; subst. specialize (IH Ht).
  destruct (f h) eqn:Hf.
  - cbn [In]. rewrite IH. split; [intros [->|[? ?]]|intros [[->|?] ?]]; auto.
  - cbn [In]. split; [contradiction|]. intros [[->|Hin] Hfx]; [congruence|].
    rewrite Forall_forall in Hall. specialize (Hall x Hin).
    rewrite (Hd h x Hall Hfx) in Hf. discriminate.
Qed.

Definition ele (k : bytes) : entry -> entry -> Prop := le_k e_key k.

(* sort_bucket is sort_by e_key, by conversion (insert_sorted has the body of insert_by e_key) *)
Lemma sort_bucket_perm k es : Permutation (sort_bucket k es) es.
Proof. exact (sort_by_perm e_key k es). Qed.

Lemma sort_bucket_sorted k es : StronglySorted (ele k) (sort_bucket k es).
Proof. exact (sort_by_sorted e_key k es). Qed.

(* what the theorem needs to know about the buckets: entry keys are well-formed,
   at least as long as the locus, and sit in the bucket of their index *)
Definition placed (L : bytes) (bs : list bucket) (start : N) : Prop :=
  forall n b e, nth_error bs n = Some b -> In e (b_ents b) ->
    wf_bytes (e_key e) = true /\ (length L <= length (e_key e))%nat /\
    lzx L (e_key e) = start + N.of_nat n.

Lemma placed_tail L b t i : placed L (b :: t) i -> placed L t (N.succ i).
Proof.
  intros H n b' e Hn He. destruct (H (S n) b' e Hn He) as (? & ? & ?). repeat split; auto. lia.
Qed.

Lemma visit_perm d k bs : forall i, Permutation (visit d k bs i) (flat_map b_ents bs).
Proof.
  induction bs as [|b t IH]; intros i; cbn [visit flat_map]; [reflexivity|].
  destruct (bit_at d i).
  - apply Permutation_app; [apply sort_bucket_perm|apply IH].
  - rewrite Permutation_app_comm. apply Permutation_app; [apply sort_bucket_perm|apply IH].
Qed.

Lemma visit_sorted L k : wf_bytes L = true ->
  forall bs i, placed L bs i -> StronglySorted (ele k) (visit (xor_bytes L k) k bs i).
Proof.
  intros HL. induction bs as [|b t IH]; intros i Hp; cbn [visit]; [constructor|].
  pose proof (placed_tail _ _ _ _ Hp) as Hpt. specialize (IH (N.succ i) Hpt).
  (* an entry x of this bucket against an entry y of a deeper one *)
  assert (Hcross : forall x y, In x (sort_bucket k (b_ents b)) -> In y (visit (xor_bytes L k) k t (N.succ i)) ->
     if bit_at (xor_bytes L k) i then distance_cmp k (e_key x) (e_key y) = Lt else ele k y x).
  { intros x y Hx Hy.
    apply (Permutation_in _ (sort_bucket_perm _ _)) in Hx.
    destruct (Hp O b x eq_refl Hx) as (Hwx & Hlx & Hix).
    apply (Permutation_in _ (visit_perm _ _ _ _)) in Hy.
    apply in_flat_map in Hy as (b' & Hb' & Hyb). apply In_nth_error in Hb' as (n & Hn).
    destruct (Hpt n b' y Hn Hyb) as (Hwy & Hly & Hiy).
    replace i with (lzx L (e_key x)) by lia.
    apply cross_bucket; auto; lia. }
  destruct (bit_at (xor_bytes L k) i).
  - apply StronglySorted_app; [apply sort_bucket_sorted|exact IH|].
    intros x y Hx Hy. unfold ele, le_k, dle. rewrite (Hcross x y Hx Hy). discriminate.
  - apply StronglySorted_app; [exact IH|apply sort_bucket_sorted|].
    intros y x Hy Hx. exact (Hcross x y Hx Hy).
Qed.

(* the two-pass loop of the code computes the same sequence *)
Lemma pass_set_visit d k bs : forall i,
  visit d k bs i = fst (pass_set d k bs i) ++ concat (rev (snd (pass_set d k bs i))).
Proof.
  induction bs as [|b t IH]; intros i; cbn [visit pass_set]; [reflexivity|].
  specialize (IH (N.succ i)). destruct (pass_set d k t (N.succ i)) as [first deferred].
  cbn [fst snd] in IH. destruct (bit_at d i); cbn [fst snd].
  - now rewrite IH, app_assoc.
  - cbn [rev]. rewrite concat_app. cbn [concat]. rewrite app_nil_r, IH, app_assoc. reflexivity.
Qed.

Lemma for_each_code_eq c k : for_each_code c k = for_each c k.
Proof.
  unfold for_each_code, for_each. rewrite pass_set_visit.
  destruct (pass_set _ _ _ _). reflexivity.
Qed.

Definition cache_placed (c : cache) : Prop := placed (c_locus c) (c_buckets c) 0.

Lemma for_each_perm c k : Permutation (for_each c k) (contents c).
Proof. apply visit_perm. Qed.

Theorem foreach_sorted_complete c k :
  wf_bytes (c_locus c) = true -> wf_bytes k = true -> cache_placed c ->
  Permutation (for_each c k) (contents c) /\ StronglySorted (ele k) (for_each c k).
Proof.
  intros HL _ Hp. split; [apply for_each_perm|].
  unfold for_each, distance. now apply visit_sorted.
Qed.

Theorem closest_is_min c k e :
  wf_bytes (c_locus c) = true -> wf_bytes k = true -> cache_placed c ->
  closest c k = Some e ->
  In e (contents c) /\ forall e', In e' (contents c) -> distance_cmp k (e_key e) (e_key e') <> Gt.
Proof.
  intros HL Hk Hp Hc. destruct (foreach_sorted_complete c k HL Hk Hp) as [Hperm Hs].
  unfold closest in Hc. split.
  - apply (Permutation_in _ Hperm). destruct (for_each c k); [discriminate|]. injection Hc as ->. now left.
  - intros e' He'. apply (sorted_head_min (ele k) (fun x => dle_refl k (e_key x)) _ _ Hs Hc).
    apply (Permutation_in _ (Permutation_sym Hperm)). exact He'.
Qed.

Theorem closest_none_iff_empty c k : closest c k = None <-> contents c = [].
Proof.
  unfold closest. pose proof (for_each_perm c k) as Hperm. split; intros H.
  - destruct (for_each c k) eqn:E; [|discriminate]. apply Permutation_nil. now symmetry in Hperm.
  - rewrite H in Hperm. apply Permutation_sym, Permutation_nil in Hperm. rewrite Hperm. reflexivity.
Qed.

Theorem closer_exact c x :
  wf_bytes (c_locus c) = true -> wf_bytes x = true -> cache_placed c ->
  forall e, In e (for_each_closer c x) <->
            In e (contents c) /\ distance_cmp x (e_key e) (c_locus c) = Lt.
Proof.
  intros HL Hx Hp e. destruct (foreach_sorted_complete c x HL Hx Hp) as [Hperm Hs].
  unfold for_each_closer.
  rewrite (take_while_sorted (ele x) _ _ Hs).
  - now rewrite Hperm, dlt_iff.
  - intros a b Hab. rewrite !dlt_iff. now apply dle_lt_trans.
Qed.
