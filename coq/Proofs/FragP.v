(* C09 / C10 for s/fragswarm: honest MTU on the sender, sound reassembly on the receiver.  Between the two
   stands Section Table, keyed tables consistent with a ledger of sent messages, which MbappP and ChkP use too. *)
From P2PV Require Import Lib.Base Lib.Varint Model.Frag Proofs.BaseP Proofs.VarintP.
From Coq Require Import Lia ZifyBool ZifyN ZifyNat.
Open Scope N_scope.

Lemma chunks_fuel_concat sz : (0 < sz)%nat -> forall fuel l, (length l <= fuel)%nat ->
  concat (chunks_fuel fuel sz l) = l.
Proof.
  intros Hsz. induction fuel as [|f IH]; intros l Hl.
  - destruct l; [reflexivity|cbn in Hl; lia].
  - cbn [chunks_fuel]. destruct l as [|x t]; [reflexivity|]. cbn [concat].
    rewrite IH; [apply firstn_skipn|]. rewrite skipn_length. cbn [length] in *. lia.
Qed.

Lemma chunks_concat sz l : (0 < sz)%nat -> concat (chunks sz l) = l.
Proof. intros H. apply chunks_fuel_concat; [assumption|lia]. Qed.

Lemma chunks_fuel_nth sz : (0 < sz)%nat -> forall fuel l i, (length l <= fuel)%nat ->
  nth_error (chunks_fuel fuel sz l) i =
  if (i * sz <? length l)%nat then Some (firstn sz (skipn (i * sz) l)) else None.
Proof.
  intros Hsz. induction fuel as [|f IH]; intros l i Hl; cbn [chunks_fuel].
  - destruct l; [|cbn in Hl; lia]. destruct i; reflexivity.
  - destruct l as [|x t]; [destruct i; reflexivity|]. destruct i as [|i]; [reflexivity|].
    cbn [nth_error]. rewrite IH, skipn_length, skipn_add by (rewrite skipn_length; cbn [length] in *; lia).
    replace (sz + i * sz)%nat with (S i * sz)%nat by lia.
    destruct (Nat.ltb_spec (i * sz) (length (x :: t) - sz)), (Nat.ltb_spec (S i * sz) (length (x :: t)));
      (reflexivity || lia).
Qed.

Lemma chunks_nth sz l i : (0 < sz)%nat ->
  nth_error (chunks sz l) i = if (i * sz <? length l)%nat then Some (firstn sz (skipn (i * sz) l)) else None.
Proof. intros H. now apply chunks_fuel_nth. Qed.

Lemma chunks_count sz l : (0 < sz)%nat ->
  (length (chunks sz l) * sz < length l + sz)%nat /\ (length l <= length (chunks sz l) * sz)%nat.
Proof.
  intros Hsz. set (n := length (chunks sz l)).
  assert (Hn : nth_error (chunks sz l) n = None) by now apply nth_error_None.
  rewrite chunks_nth in Hn by assumption. destruct (Nat.ltb_spec (n * sz) (length l)); [discriminate|].
  split; [|assumption]. destruct n as [|k] eqn:E; [lia|].
  assert (Hk : nth_error (chunks sz l) k <> None) by (apply nth_error_Some; lia).
  rewrite chunks_nth in Hk by assumption. destruct (Nat.ltb_spec (k * sz) (length l)); [lia|congruence].
Qed.

Lemma chunks_size sz l c : (0 < sz)%nat -> In c (chunks sz l) -> (0 < length c <= sz)%nat.
Proof.
  intros Hsz Hin. apply In_nth_error in Hin as (i & Hi). rewrite chunks_nth in Hi by assumption.
  destruct (Nat.ltb_spec (i * sz) (length l)); [|discriminate]. injection Hi as <-.
  rewrite firstn_length, skipn_length. lia.
Qed.

(* the last chunk is the one with (S i) * sz >= |l|: by chunks_count, i * sz < |l| <= n * sz < |l| + sz *)
Lemma chunks_nth_length sz l i c : (0 < sz)%nat -> nth_error (chunks sz l) i = Some c ->
  length c = if (S i =? length (chunks sz l))%nat then (length l - i * sz)%nat else sz.
Proof.
  intros Hsz Hi. pose proof (nth_error_lt _ _ _ Hi) as Hlt. destruct (chunks_count sz l Hsz) as (Hup & Hlo).
  rewrite chunks_nth in Hi by assumption. destruct (i * sz <? length l)%nat; [|discriminate]. injection Hi as <-.
  rewrite firstn_length, skipn_length. generalize dependent (length (chunks sz l)). intros n Hlt Hup Hlo.
  destruct (Nat.eqb_spec (S i) n) as [<-|]; nia.
Qed.

(* 5 + 2 + 2 bytes for a uint32 and two uint8 fields; the code reserves OVERHEAD = 15 = 3 * MaxVarintLen32 *)
Lemma header_len id part total : id < 2 ^ 32 -> part < 256 -> total < 256 ->
  lenN (frag_header id part total) <= 9.
Proof.
  intros Hi Hp Ht. unfold frag_header. rewrite !lenN_app.
  assert (H5 : 2 ^ 32 < 2 ^ (7 * N.of_nat 5)) by reflexivity.
  assert (H2 : 256 < 2 ^ (7 * N.of_nat 2)) by reflexivity.
  pose proof (put_uvarint_short 5 id ltac:(lia) ltac:(lia)).
  pose proof (put_uvarint_short 2 part ltac:(lia) ltac:(lia)).
  pose proof (put_uvarint_short 2 total ltac:(lia) ltac:(lia)). lia.
Qed.

Lemma parse_new id part total data : id < 2 ^ 32 -> part < total -> total < 256 ->
  parse_message (new_message id part total data) = Ok (id, part, total, data).
Proof.
  intros Hi Hp Ht. unfold parse_message, new_message, frag_header. rewrite <- !app_assoc.
  assert (H64 : 2 ^ 32 < 2 ^ 64) by (vm_compute; reflexivity).
  assert (H8 : 256 < 2 ^ 64) by (vm_compute; reflexivity).
  destruct (uvarint_read id (put_uvarint part ++ put_uvarint total ++ data)) as (n0 & -> & -> & ->); [lia|].
  destruct (uvarint_read part (put_uvarint total ++ data)) as (n1 & -> & -> & ->); [lia|].
  destruct (uvarint_read total data) as (n2 & -> & -> & ->); [lia|].
  rewrite !N.mod_small by lia. destruct (N.leb_spec total part); [lia|]. reflexivity.
Qed.

Lemma number_from_spec {A} (l : list A) : forall i j x,
  nth_error (number_from i l) j = Some x <-> exists y, nth_error l j = Some y /\ x = (i + N.of_nat j, y).
Proof.
  induction l as [|h t IH]; intros i j x; cbn [number_from].
  - destruct j; split; [discriminate|intros (y & H & _); discriminate|discriminate|intros (y & H & _); discriminate].
  - destruct j as [|j]; cbn [nth_error].
    + split; [intros H; injection H as <-; exists h; split; [reflexivity|f_equal; lia]|].
      intros (y & H & ->). injection H as <-. f_equal. f_equal. lia.
    + rewrite IH. split; intros (y & H & ->); exists y; (split; [assumption|f_equal; lia]).
Qed.

Lemma number_from_length {A} (l : list A) i : length (number_from i l) = length l.
Proof. revert i; induction l as [|h t IH]; intros i; cbn [number_from length]; auto. Qed.

Lemma in_map_number_from {A B} (f : N * A -> B) (l : list A) x :
  In x (map f (number_from 0 l)) <-> exists j y, nth_error l j = Some y /\ x = f (N.of_nat j, y).
Proof.
  rewrite in_map_iff. split.
  - intros (p & <- & Hin). apply In_nth_error in Hin as (j & Hj).
    apply number_from_spec in Hj as (y & Hy & ->). now exists j, y.
  - intros (j & y & Hy & ->). exists (N.of_nat j, y). split; [reflexivity|].
    apply (nth_error_In _ j). apply number_from_spec. now exists y.
Qed.

(* the packets of a message cut into chunks cs: one packet "0 of 1" with the whole payload when there are fewer than
   two chunks (an empty payload has no chunk and still yields one packet, with an empty body), else chunk j as
   fragment j of |cs| *)
Definition fragments (id : N) (cs : list bytes) : list bytes :=
  match cs with
  | [] => [new_message id 0 1 []]
  | [c] => [new_message id 0 1 c]
  | _ => map (fun p => new_message id (fst p) (lenN cs) (snd p)) (number_from 0 cs)
  end.

Lemma fragments_short id cs : (length cs < 2)%nat -> fragments id cs = [new_message id 0 1 (concat cs)].
Proof.
  destruct cs as [|c [|c2 t]]; cbn [length concat fragments]; intros H; [reflexivity|now rewrite app_nil_r|lia].
Qed.

Lemma in_fragments id cs pkt : (2 <= length cs)%nat ->
  In pkt (fragments id cs) <-> exists j c, nth_error cs j = Some c /\ pkt = new_message id (N.of_nat j) (lenN cs) c.
Proof.
  intros H. destruct cs as [|c [|c2 t]]; cbn [length] in H; [lia|lia|].
  apply (in_map_number_from (fun p => new_message id (fst p) _ (snd p))).
Qed.

Lemma frag_mtu_cap inner cfg : (1 <= under_mtu inner)%Z ->
  (frag_mtu inner cfg <= 255 * under_mtu inner)%Z /\ (frag_mtu inner cfg <= Z.max cfg 0)%Z.
Proof.
  intros H. unfold frag_mtu.
  destruct (Z.ltb_spec (255 * under_mtu inner) cfg); [destruct (Z.ltb_spec (255 * under_mtu inner) 0)|]; lia.
Qed.

Lemma frag_tell_ok inner cfg id payload :
  (1 <= under_mtu inner)%Z -> (Z.of_N (lenN payload) <= frag_mtu inner cfg)%Z ->
  let cs := chunks (Z.to_nat (under_mtu inner)) payload in
  frag_tell inner cfg id payload = Ok (fragments id cs) /\
  concat cs = payload /\ lenN cs <= 255 /\
  Forall (fun c => Z.of_N (lenN c) <= under_mtu inner)%Z cs.
Proof.
  intros Hu Hm. cbn zeta. unfold frag_tell.
  destruct (Z.ltb_spec (under_mtu inner) 1); [lia|]. cbn [orb].
  destruct (Z.ltb_spec (frag_mtu inner cfg) (Z.of_N (lenN payload))); [lia|].
  set (sz := Z.to_nat (under_mtu inner)). assert (Hsz : (0 < sz)%nat) by lia.
  pose proof (chunks_concat sz payload Hsz) as Hc.
  destruct (chunks_count sz payload Hsz) as (Hup & Hlo).
  split; [|split; [exact Hc|split]].
  - revert Hc. destruct (chunks sz payload) as [|c [|c2 t]]; intros Hc; [| |reflexivity];
      now rewrite fragments_short, Hc by (cbn [length]; lia).
  - destruct (frag_mtu_cap inner cfg Hu) as [Hcap _].
    pose proof (lenN_spec payload) as Hlp. pose proof (lenN_spec (chunks sz payload)) as Hlc.
    (* |payload| <= frag_mtu <= 255 * sz (frag_mtu_cap), and n chunks have n * sz < |payload| + sz (Hup) *)
    assert (length payload <= 255 * sz)%nat by lia. nia.
  - apply Forall_forall. intros c Hin. pose proof (chunks_size sz payload c Hsz Hin). rewrite lenN_spec. lia.
Qed.

Lemma frag_tell_err inner cfg id payload :
  (frag_mtu inner cfg < Z.of_N (lenN payload))%Z -> frag_tell inner cfg id payload = Err E_MTU.
Proof.
  intros H. unfold frag_tell. destruct (Z.ltb_spec (frag_mtu inner cfg) (Z.of_N (lenN payload))); [|lia].
  now rewrite Bool.orb_true_r.
Qed.

Lemma frag_tell_fits inner cfg id p :
  (1 <= under_mtu inner)%Z -> id < 2 ^ 32 -> (Z.of_N (lenN p) <= frag_mtu inner cfg)%Z ->
  exists ps, frag_tell inner cfg id p = Ok ps /\ Forall (fun w => (Z.of_N (lenN w) <= inner)%Z) ps.
Proof.
  intros Hu Hid Hm. destruct (frag_tell_ok inner cfg id p Hu Hm) as (E & Hc & Hn & Hall). cbn zeta in *.
  set (sz := Z.to_nat (under_mtu inner)) in *. set (cs := chunks sz p) in *.
  eexists; split; [exact E|]. apply Forall_forall. intros w Hin.
  assert (G : forall part total c, part < 256 -> total < 256 -> (Z.of_N (lenN c) <= under_mtu inner)%Z ->
              (Z.of_N (lenN (new_message id part total c)) <= inner)%Z).
  { intros part total c Hp Ht Hl. unfold new_message. rewrite lenN_app.
    pose proof (header_len id part total Hid Hp Ht). unfold under_mtu, OVERHEAD in Hl. lia. }
  rewrite lenN_spec in Hn. destruct (Nat.lt_ge_cases (length cs) 2) as [Hs|Hl].
  - (* one packet with the whole payload, which is no longer than the chunk size *)
    rewrite fragments_short, Hc in Hin by assumption. destruct Hin as [<-|[]]. apply G; [lia|lia|].
    destruct (chunks_count sz p ltac:(lia)) as (_ & Hlo). fold cs in Hlo. rewrite lenN_spec. nia.
  - apply in_fragments in Hin as (j & c & Hj & ->); [|assumption].
    pose proof (nth_error_lt _ _ _ Hj). unfold bytes in *. apply G; [lia|rewrite lenN_spec; lia|].
    rewrite Forall_forall in Hall. apply Hall. eapply nth_error_In; eauto.
Qed.

Lemma key_eqb_spec a b : reflect (a = b) (key_eqb a b).
Proof.
  destruct a as [s i], b as [s' i']. unfold key_eqb. cbn [fst snd].
  destruct (bytes_eqb_spec s s') as [->|Hs]; cbn [andb]; [|constructor; congruence].
  destruct (N.eqb_spec i i') as [->|Hi]; constructor; congruence.
Qed.

(* Keyed tables as association lists.  The model's st_get/st_del/st_put, and col_get/col_del/col_put of the mbapp
   collectors, are tget/tdel/tput at their key types up to conversion, so what is proved here applies to them as it
   stands. *)
Section Table.
  Context {K V M : Type} (eqb : K -> K -> bool) (eqb_spec : forall a b, reflect (a = b) (eqb a b)).

  Fixpoint tget (t : list (K * V)) (k : K) : option V :=
    match t with
    | [] => None
    | (k', v) :: r => if eqb k' k then Some v else tget r k
    end.
  Fixpoint tdel (t : list (K * V)) (k : K) : list (K * V) :=
    match t with
    | [] => []
    | (k', v) :: r => if eqb k' k then tdel r k else (k', v) :: tdel r k
    end.
  Definition tput (t : list (K * V)) (k : K) (v : V) : list (K * V) := (k, v) :: tdel t k.

  Lemma tget_in t k v : tget t k = Some v -> In (k, v) t.
  Proof.
    induction t as [|[k0 v0] r IH]; cbn [tget]; [discriminate|].
    destruct (eqb_spec k0 k) as [->|]; [intros [= <-]; now left|intros H; right; auto].
  Qed.

  Lemma tdel_incl t k : incl (tdel t k) t.
  Proof.
    induction t as [|[k0 v0] r IH]; cbn [tdel]; [apply incl_refl|].
    destruct (eqb k0 k); [now apply incl_tl|]. apply incl_cons; [now left|now apply incl_tl].
  Qed.

  (* Consistency with a ledger L of sent messages: every entry anywhere in the list, not only the one tget finds,
     fits the ledger message of its key.  That is simpler to keep than "no key occurs twice" and is all that is used. *)
  Context (key : M -> K) (ok : M -> V -> Prop) (L : list M).
  Definition tinv (t : list (K * V)) : Prop := forall k v, In (k, v) t -> exists m, In m L /\ key m = k /\ ok m v.

  Lemma tinv_incl t t' : incl t' t -> tinv t -> tinv t'.
  Proof. intros Hi H k v Hin. apply H, Hi, Hin. Qed.

  Lemma tinv_put t m v : tinv t -> In m L -> ok m v -> tinv (tput t (key m) v).
  Proof. intros H Hm Hv k v' [[= <- <-]|Hin]; [now exists m|]. apply H, (tdel_incl t (key m) _ Hin). Qed.

  Lemma tinv_get t m v : NoDup (map key L) -> tinv t -> In m L -> tget t (key m) = Some v -> ok m v.
  Proof.
    intros Hnd H Hm Hg. destruct (H _ _ (tget_in _ _ _ Hg)) as (m' & Hm' & Hk & Hv).
    now rewrite <- (NoDup_map_inj key L m' m Hnd Hm' Hm Hk).
  Qed.
End Table.
Arguments tget_in {K V eqb} eqb_spec {t k v}.
Arguments tdel_incl {K V} eqb {t k}.
Arguments tinv_incl {K V M key ok L t t'}.
Arguments tinv_put {K V M} eqb {key ok L t m v}.
Arguments tinv_get {K V M eqb} eqb_spec {key ok L t m v}.

Lemma st_get_del st k k' : st_get (st_del st k) k' = if key_eqb k k' then None else st_get st k'.
Proof.
  induction st as [|[k0 a] t IH]; cbn [st_del st_get]; [destruct (key_eqb k k'); reflexivity|].
  destruct (key_eqb_spec k0 k) as [->|Hne].
  - rewrite IH. destruct (key_eqb_spec k k'); reflexivity.
  - cbn [st_get]. destruct (key_eqb_spec k0 k') as [->|Hne'].
    + destruct (key_eqb_spec k k'); [congruence|reflexivity].
    + exact IH.
Qed.

Lemma st_get_put st k a k' : st_get (st_put st k a) k' = if key_eqb k k' then Some a else st_get st k'.
Proof.
  unfold st_put. cbn [st_get]. destruct (key_eqb_spec k k'); [reflexivity|].
  rewrite st_get_del. destruct (key_eqb_spec k k'); [contradiction|reflexivity].
Qed.

(* a sent message; s_id is the uint32 message id and a fragment carries the number of chunks in a uint8 field, whence
   the bounds of wf_sent *)
Record sent := mkSent { s_src : bytes; s_id : N; s_chunks : list bytes }.
Definition s_payload (m : sent) : bytes := concat (s_chunks m).
Definition s_key (m : sent) : agg_key := (s_src m, s_id m).
Definition wf_sent (m : sent) : Prop := s_id m < 2 ^ 32 /\ lenN (s_chunks m) <= 255.

Definition genuine (L : list sent) (src pkt : bytes) : Prop :=
  exists m, In m L /\ wf_sent m /\ s_src m = src /\ In pkt (fragments (s_id m) (s_chunks m)).

Lemma genuine_nth L m i : In m L -> wf_sent m -> (i < length (fragments (s_id m) (s_chunks m)))%nat ->
  genuine L (s_src m) (nth i (fragments (s_id m) (s_chunks m)) []).
Proof. intros Hm Hwf Hi. exists m. split; [assumption|]. split; [assumption|]. split; [reflexivity|]. now apply nth_In. Qed.

(* consistency of one aggregator with the message it belongs to; seen = the (src, packet) pairs delivered so far *)
Definition agg_ok (seen : list (bytes * bytes)) (m : sent) (a : agg) : Prop :=
  (2 <= length (s_chunks m))%nat /\ length a = length (s_chunks m) /\
  forall j d, nth_error a j = Some (Some d) ->
    nth_error (s_chunks m) j = Some d /\
    In (s_src m, new_message (s_id m) (N.of_nat j) (lenN (s_chunks m)) d) seen.

(* inv L seen is tinv s_key (agg_ok seen) L by conversion: the table lemmas apply to it as they stand *)
Definition inv (L : list sent) (seen : list (bytes * bytes)) (st : frag_state) : Prop :=
  forall k a, In (k, a) st -> exists m, In m L /\ s_key m = k /\ agg_ok seen m a.

Lemma inv_init L : inv L [] [].
Proof. intros k a []. Qed.

Lemma agg_ok_mono seen seen' m a : incl seen seen' -> agg_ok seen m a -> agg_ok seen' m a.
Proof. intros Hs (A & B & C). split; [assumption|]. split; [assumption|]. intros j d H. destruct (C j d H). auto. Qed.

Lemma inv_mono L seen seen' st : incl seen seen' -> inv L seen st -> inv L seen' st.
Proof. intros Hs Hi k a Hin. destruct (Hi k a Hin) as (m & A & B & C). exists m. eauto using agg_ok_mono. Qed.

Lemma set_part_length a i d : length (set_part a i d) = length a.
Proof. revert i; induction a as [|h t IH]; intros [|i]; cbn [set_part length]; auto. Qed.

Lemma set_part_nth a i d j : (i < length a)%nat ->
  nth_error (set_part a i d) j = if Nat.eqb j i then Some (Some d) else nth_error a j.
Proof.
  revert i j; induction a as [|h t IH]; intros i j Hi; [cbn in Hi; lia|].
  destruct i as [|i], j as [|j]; cbn [set_part nth_error Nat.eqb]; try reflexivity.
  apply IH. cbn [length] in Hi. lia.
Qed.

Lemma all_present_map a ps : all_present a = Some ps -> a = map Some ps.
Proof.
  revert ps; induction a as [|[x|] t IH]; intros ps; cbn [all_present]; [intros [= <-]; reflexivity| |discriminate].
  destruct (all_present t) as [r|]; [|discriminate]. intros [= <-]. cbn [map]. now rewrite (IH r).
Qed.

Lemma agg_ok_fresh seen m : (2 <= length (s_chunks m))%nat -> agg_ok seen m (repeat None (length (s_chunks m))).
Proof.
  intros H. split; [exact H|]. split; [apply repeat_length|].
  intros j d Hj. apply nth_error_In, repeat_spec in Hj. discriminate.
Qed.

Lemma agg_ok_set seen m a j c : agg_ok seen m a -> nth_error (s_chunks m) j = Some c ->
  agg_ok ((s_src m, new_message (s_id m) (N.of_nat j) (lenN (s_chunks m)) c) :: seen) m (set_part a j c).
Proof.
  intros (H2 & Hl & Hc) Hj. split; [exact H2|]. split; [now rewrite set_part_length|].
  intros j0 d. rewrite set_part_nth by (rewrite Hl; eapply nth_error_lt; eauto).
  destruct (Nat.eqb_spec j0 j) as [->|_].
  - intros [= <-]. split; [exact Hj|now left].
  - intros H. destruct (Hc j0 d H). split; [assumption|now right].
Qed.

Lemma agg_ok_complete seen m ps : agg_ok seen m (map Some ps) ->
  ps = s_chunks m /\ forall f, In f (fragments (s_id m) (s_chunks m)) -> In (s_src m, f) seen.
Proof.
  intros (H2 & Hl & Hc). rewrite map_length in Hl.
  assert (E : ps = s_chunks m).
  { apply nth_error_ext; [exact Hl|]. intros j d H. now apply Hc, map_nth_error. }
  split; [exact E|]. intros f Hf. apply in_fragments in Hf as (j & c & Hj & ->); [|exact H2].
  apply Hc, map_nth_error. now rewrite E.
Qed.

Lemma frag_recv_genuine L seen st src pkt :
  NoDup (map s_key L) -> inv L seen st -> genuine L src pkt ->
  exists st' d, frag_recv st src pkt = Ok (st', d) /\ inv L ((src, pkt) :: seen) st' /\
    forall p, d = Some p -> exists m, In m L /\ s_src m = src /\ s_payload m = p /\
       (* no partial delivery: every fragment of m has been delivered by now *)
       forall f, In f (fragments (s_id m) (s_chunks m)) -> In (src, f) ((src, pkt) :: seen).
Proof.
  intros Hnd Hinv (m & Hm & (Hid & Hcnt) & <- & Hpkt). pose proof (lenN_spec (s_chunks m)) as Hn.
  assert (Hinv' : inv L ((s_src m, pkt) :: seen) st) by (eapply inv_mono; [|exact Hinv]; now apply incl_tl).
  unfold frag_recv. destruct (Nat.lt_ge_cases (length (s_chunks m)) 2) as [Hshort|Hlong].
  - (* one packet carries the whole payload *)
    rewrite fragments_short in Hpkt by assumption. destruct Hpkt as [<-|[]]. rewrite parse_new by lia.
    exists st, (Some (s_payload m)). split; [reflexivity|]. split; [exact Hinv'|].
    intros p [= <-]. exists m. rewrite fragments_short by assumption. repeat split; auto.
    intros f [<-|[]]. now left.
  - (* fragment j of several *)
    apply in_fragments in Hpkt as (j & c & Hj & ->); [|assumption].
    pose proof (nth_error_lt _ _ _ Hj) as Hjlt.
    rewrite parse_new by lia.
    destruct (N.eqb_spec (lenN (s_chunks m)) 1); [lia|].
    change (s_src m, s_id m) with (s_key m).
    (* the aggregator in use is consistent with m, and stays so with the fragment put in *)
    set (a := match st_get st (s_key m) with Some a => a | None => _ end).
    assert (Ha : agg_ok seen m a).
    { unfold a. destruct (st_get st (s_key m)) as [a0|] eqn:Eg.
      - exact (tinv_get key_eqb_spec Hnd Hinv Hm Eg).
      - rewrite Hn, Nat2N.id. now apply agg_ok_fresh. }
    pose proof (agg_ok_set _ _ _ _ _ Ha Hj) as Ha'. destruct Ha as (_ & Hlen & _).
    assert (HlenN : lenN a = lenN (s_chunks m)) by now rewrite !lenN_spec, Hlen.
    rewrite HlenN, N.eqb_refl. cbn [negb orb].
    destruct (N.leb_spec (lenN (s_chunks m)) (N.of_nat j)); [lia|]. rewrite Nat2N.id.
    destruct (all_present (set_part a j c)) as [ps|] eqn:Eall.
    + (* complete: deliver the concatenation *)
      apply all_present_map in Eall. rewrite Eall in Ha'. apply agg_ok_complete in Ha' as [-> Hseen].
      exists (st_del st (s_key m)), (Some (s_payload m)). split; [reflexivity|].
      split; [exact (tinv_incl (tdel_incl key_eqb) Hinv')|].
      intros p [= <-]. exists m. auto.
    + exists (st_put st (s_key m) (set_part a j c)), None. split; [reflexivity|]. split; [|discriminate].
      exact (tinv_put key_eqb Hinv' Hm Ha').
Qed.

Lemma inv_cleanup L seen st drop : inv L seen st -> inv L seen (frag_cleanup st drop).
Proof. exact (tinv_incl (incl_filter _ st)). Qed.

Inductive action := ADeliver (src pkt : bytes) | ACleanup (drop : agg_key -> bool).

Definition ok_action (L : list sent) (a : action) : Prop :=
  match a with ADeliver src pkt => genuine L src pkt | ACleanup _ => True end.

(* deliveries of a schedule, each with the packets delivered up to and including that step *)
Fixpoint run_sched (st : frag_state) (seen : list (bytes * bytes)) (acts : list action)
  : list (bytes * bytes * list (bytes * bytes)) :=
  match acts with
  | [] => []
  | ADeliver src pkt :: t =>
      match frag_recv st src pkt with
      | Ok (st', Some p) => (src, p, (src, pkt) :: seen) :: run_sched st' ((src, pkt) :: seen) t
      | Ok (st', None) => run_sched st' ((src, pkt) :: seen) t
      | _ => run_sched st ((src, pkt) :: seen) t
      end
  | ACleanup drop :: t => run_sched (frag_cleanup st drop) seen t
  end.

Theorem reassembly_sound L : NoDup (map s_key L) ->
  forall acts st seen, inv L seen st -> Forall (ok_action L) acts ->
  forall src p sn, In (src, p, sn) (run_sched st seen acts) ->
    exists m, In m L /\ s_src m = src /\ s_payload m = p /\
              forall f, In f (fragments (s_id m) (s_chunks m)) -> In (src, f) sn.
Proof.
  intros Hnd. induction acts as [|a acts IH]; intros st seen Hinv Hall src p sn Hin; [contradiction|].
  inversion Hall as [|? ? Ha Hrest]; subst. destruct a as [s pkt|drop]; cbn [run_sched] in Hin.
  - cbn [ok_action] in Ha.
    destruct (frag_recv_genuine L seen st s pkt Hnd Hinv Ha) as (st' & d & Hr & Hinv' & Hd).
    rewrite Hr in Hin. destruct d as [p0|].
    + destruct Hin as [E|Hin]; [|eapply IH; eauto].
      injection E as <- <- <-. destruct (Hd p0 eq_refl) as (m & A & B & C & D). exists m. auto.
    + eapply IH; eauto.
  - eapply IH; [|exact Hrest|exact Hin]. now apply inv_cleanup.
Qed.
