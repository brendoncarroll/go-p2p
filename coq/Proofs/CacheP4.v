(* inv_placed: the invariant places the buckets as the enumeration order needs
   them (C19; the one lemma that needs both the cache and the order).
   no_silent_loss (C18), with its helper, rests on CacheP3 alone. *)
From P2PV Require Import Lib.Base Model.Distance Model.Cache Proofs.BaseP Proofs.DistanceP
  Proofs.CacheP Proofs.CacheP2 Proofs.CacheP3 Proofs.ForEachP.
From Coq Require Import Lia ZifyBool ZifyN ZifyNat.
Open Scope Z_scope.

(* a key shorter than the locus is put in a bucket by its zero-padded distance but compared by
   its truncated one; for keys at least as long as the locus the two agree (bucket_index_lzx) *)
Definition keys_fit (c : cache) : Prop :=
  forall e, In e (contents c) -> wf_bytes (e_key e) = true /\ (length (c_locus c) <= length (e_key e))%nat.

Lemma inv_placed c : inv c -> keys_fit c -> cache_placed c.
Proof.
  intros (_ & _ & _ & _ & Hbs) Hfit n b e Hn He.
  assert (Hin : In e (contents c)).
  { rewrite <- (bucket_at_nth_error _ _ _ Hn) in He. exact (in_bucket_contents _ _ _ He). }
  destruct (Hfit e Hin) as [Hw Hl]. split; [assumption|]. split; [assumption|].
  destruct (Hbs n b Hn) as (_ & Hidx & _). specialize (Hidx e He).
  rewrite bucket_index_lzx in Hidx by assumption. lia.
Qed.

(* an Update loses no key but its reported victim's *)
Lemma update_spec_loss c k fn ev k' e :
  lookup c k' = Some e -> update_spec c k fn ev k' = None -> exists v, ev = Some v /\ e_key v = k'.
Proof.
  intros Hl. unfold update_spec. rewrite Hl. destruct (c_max c =? 0); [discriminate|].
  destruct ev as [v|].
  - destruct (bytes_eqb_spec (e_key v) k'); [eauto|]. destruct (bytes_eqb k k'); discriminate.
  - destruct (bytes_eqb k k'); discriminate.
Qed.

Lemma no_silent_loss c o orc c' r k e :
  inv c -> step c o orc = Ok (c', r) -> lookup c k = Some e -> lookup c' k = None ->
  o = ODel k \/
  (exists now, o = OExpire now /\ is_expired now e = true /\ r = RExpire (filter (is_expired now) (contents c))
               /\ In e (filter (is_expired now) (contents c))) \/
  (exists ev added, r = RPut (Some ev) added /\ e_key ev = k).
Proof.
  intros Hi Hs Hl Hn.
  destruct (sure_ok _ _ _ (step_correct c o orc Hi) Hs) as (_ & Hspec & Hres).
  specialize (Hspec k). rewrite Hn in Hspec. symmetry in Hspec.
  (* of the 30 pairs of an operation and an output, those that do not belong together
     make Hres False, and for Get and Count the map is unchanged, against Hl *)
  destruct o as [k0 v now exp|k0 v now exp|k0|now|k0|]; destruct r as [ev added|e0|es|v0|n0];
    cbn [spec_after] in Hspec; try contradiction; try congruence.
  - right; right. destruct (update_spec_loss _ _ _ _ _ _ Hl Hspec) as (v' & -> & Hv). eauto.
  - right; right. destruct (update_spec_loss _ _ _ _ _ _ Hl Hspec) as (v' & -> & Hv). eauto.
  - left. destruct (bytes_eqb_spec k0 k) as [->|]; [reflexivity|congruence].
  - right; left. exists now. rewrite Hl in Hspec. destruct (is_expired now e) eqn:Ex; [|congruence].
    subst es. repeat split; auto. apply filter_In. split; [|assumption].
    now destruct (lookup_in _ _ _ Hl).
Qed.
