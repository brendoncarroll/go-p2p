(* C11: the table of outstanding asks of p/mbapp (asker.go).  A reply completes the
   ask filed under its id and no other; success is never a truncated or an error answer. *)
From P2PV Require Import Lib.Base Model.AskTable Proofs.BaseP.
From Coq Require Import Lia.
Open Scope N_scope.

Lemma aid_eqb_spec a b : reflect (a = b) (aid_eqb a b).
Proof.
  destruct a as [[a1 a2] a3], b as [[b1 b2] b3]. unfold aid_eqb. cbn [fst snd].
  destruct (bytes_eqb_spec a1 b1) as [->|N1]; [|constructor; congruence].
  destruct (N.eqb_spec a2 b2) as [->|N2]; [|constructor; congruence].
  destruct (N.eqb_spec a3 b3) as [->|N3]; constructor; congruence.
Qed.

Lemma t_get_del t id id' : t_get (t_del t id) id' = if aid_eqb id id' then None else t_get t id'.
Proof.
  induction t as [|a r IH]; cbn [t_del t_get]; [destruct (aid_eqb id id'); reflexivity|].
  destruct (aid_eqb_spec (a_id a) id) as [E|N].
  - rewrite IH. destruct (aid_eqb_spec id id') as [E2|N2]; [reflexivity|].
    destruct (aid_eqb_spec (a_id a) id'); [congruence|reflexivity].
  - cbn [t_get]. rewrite IH. destruct (aid_eqb_spec (a_id a) id') as [E3|N3]; [|reflexivity].
    destruct (aid_eqb_spec id id'); [congruence|reflexivity].
Qed.

(* a reply completes exactly the ask filed under its (address, origin time,
   counter), hands it the reply's bytes, and completes nothing else; it can do so once *)
Theorem reply_completes_own_ask t id resp err t' req resp' err' :
  t_reply t id resp err = (t', Some (req, resp', err')) ->
  (exists a, t_get t id = Some a /\ a_req a = req /\ a_state a = Pending) /\ resp' = resp /\ err' = err /\
  t_get t' id = None /\ (forall id2, id2 <> id -> t_get t' id2 = t_get t id2).
Proof.
  unfold t_reply. destruct (t_get t id) as [a|] eqn:E; [|discriminate].
  destruct (a_state a) eqn:Es; try discriminate. intros [= <- <- <- <-].
  split; [exists a; auto|]. split; [reflexivity|]. split; [reflexivity|]. split.
  - rewrite t_get_del. destruct (aid_eqb_spec id id); congruence.
  - intros id2 Hne. rewrite t_get_del. destruct (aid_eqb_spec id id2); congruence.
Qed.

(* a reply under an id nobody is waiting on changes nothing *)
Theorem stray_reply_ignored t id resp err : t_get t id = None -> t_reply t id resp err = (t, None).
Proof. unfold t_reply. now intros ->. Qed.

(* asks filed under different ids do not disturb each other *)
Theorem create_keeps_others t id req id2 : id2 <> id -> t_get (t_create t id req) id2 = t_get t id2.
Proof.
  intros Hne. unfold t_create. cbn [t_get a_id]. destruct (aid_eqb_spec id id2); [congruence|].
  rewrite t_get_del. destruct (aid_eqb_spec id id2); congruence.
Qed.

(* the caller is never given a truncated or an error answer as a success *)
Theorem ask_result_success cap resp err r : ask_result cap resp err = OAnswer r ->
  r = resp /\ lenN resp <= cap /\ err = 0.
Proof.
  unfold ask_result. destruct (N.ltb_spec cap (lenN resp)); [discriminate|].
  destruct (N.ltb_spec 0 err); [discriminate|]. intros [= <-]. repeat split; lia.
Qed.
