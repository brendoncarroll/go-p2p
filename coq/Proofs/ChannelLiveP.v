(* C07, channel level: from ANY pair of channel states in which no handshake is
   in progress (whatever sessions they hold from the past), the handshake that a
   pending Send starts completes over a reliable in-order network in one round
   trip and a half, both sides end up with current sessions bound to each other's
   keys, and the data of the Send is handed up by the peer.  Also: simultaneous
   open converges, and the handshake timer retransmits while a session waits. *)
From P2PV Require Import Lib.Base Model.Handshake Model.Channel Proofs.ChannelP Proofs.ChannelNP.
From Coq Require Import Lia ZifyBool ZifyN.
Open Scope N_scope.

Definition otag_ne (x : option csess) (t : N) : Prop := match x with Some se => c_tag se <> t | None => True end.
Definition orank_ne (x : option csess) (r : N) : Prop := match x with Some se => c_rank se <> r | None => True end.

Lemma otag_ne_has x t : otag_ne x t <-> has_tag t x = false.
Proof. destruct x as [se|]; cbn; [apply iff_sym, N.eqb_neq|tauto]. Qed.

(* The sessions of one handshake, state by state: the initiator before its InitHello is
   answered, after the RespHello, after the RespDone; the responder after the InitHello,
   after the InitDone, and (resp3d) after it has also accepted the first data counter, 16. *)
Definition init0 (fA rank ts : N) : csess := mkCS (new_sess true) fA None None rank ts 0.
Definition init2 (fA fB kB rank ts : N) : csess :=
  mkCS (with_hs (new_sess true) 2 (Some 2%nat) 0) fA (Some fB) (Some kB) rank ts 0.
Definition init4 (fA fB kB rank ts : N) : csess :=
  mkCS (with_hs (with_hs (new_sess true) 2 (Some 2%nat) 0) 4 None NONCE_POST_HANDSHAKE) fA (Some fB) (Some kB) rank ts 0.
Definition resp1 (fB fA kA rank ts : N) : csess :=
  mkCS (with_hs (new_sess false) 1 (Some 1%nat) 0) fB (Some fA) (Some kA) rank ts 0.
Definition resp3 (fB fA kA rank ts : N) : csess :=
  mkCS (with_hs (with_hs (new_sess false) 1 (Some 1%nat) 0) 3 (Some 3%nat) NONCE_POST_HANDSHAKE) fB (Some fA) (Some kA) rank ts 0.
Definition resp3d (fB fA kA rank ts : N) : csess :=
  mkCS (mkS false 8 [false; true; false; true] NONCE_POST_HANDSHAKE NONCE_POST_HANDSHAKE [NONCE_POST_HANDSHAKE]) fB (Some fA) (Some kA) rank ts 0.

(* check_key as a proposition *)
Definition bound_ok (accept : N -> bool) (ch : chan) (k : N) : Prop :=
  match ch_remote ch with Some r => r = k | None => accept k = true end.

Lemma bound_check accept B k : bound_ok accept B k -> check_key accept B k = true.
Proof. unfold check_key, bound_ok. destruct (ch_remote B) as [r|]; [intros ->; apply N.eqb_refl|auto]. Qed.

(* Step 1 of the establishment, and every InitHello that matches no session: Channel.Deliver
   creates the responder session R for it, unless the prospective session X it already
   holds takes precedence; then X's own handshake message is repeated. *)
Lemma deliver_hello accept fresh ch w : w_kind w = MIH ->
  orank_ne (ch_s0 ch) (w_rank w) -> orank_ne (ch_s1 ch) (w_rank w) -> orank_ne (ch_s2 ch) (w_rank w) ->
  w_ts w <? ch_rts ch = false -> bound_ok accept ch (w_chan w) ->
  chan_deliver accept fresh ch w =
  let R := resp1 fresh (w_from w) (w_chan w) (w_rank w) (w_ts w) in
  match ch_s2 ch with
  | Some X => if (if s_init (cs X) then c_rank X <? w_rank w else negb (c_ts X <? w_ts w))
              then match write_handshake (cs X) with
                   | Ok (Some k) => Ok (ch, DSend (emit ch X k))
                   | Ok None => Ok (ch, DNone)
                   | Err e => Err e
                   | Panic p => Panic p
                   end
              else Ok (set_slot ch 2 (Some R), DSend (emit ch R MRH))
  | None => Ok (set_slot ch 2 (Some R), DSend (emit ch R MRH))
  end.
Proof.
  intros Ek R0 R1 R2 Hts Bd.
  assert (G : forall x, In x (ch_slots ch) -> match x with Some se => c_rank se =? w_rank w | None => false end = false).
  { intros x [<-|[<-|[<-|[]]]]; [destruct (ch_s0 ch)|destruct (ch_s1 ch)|destruct (ch_s2 ch)]; auto; now apply N.eqb_neq. }
  (* the loop passes every session by *)
  assert (L : forall ord, deliver_loop accept (ch_slots ch) w ord ch = inr ch).
  { induction ord as [|i t IHt]; [reflexivity|]. cbn [deliver_loop]. rewrite Ek.
    destruct (nth_in_or_default i (ch_slots ch) None) as [Hin|E]; [|now rewrite E].
    specialize (G _ Hin). destruct (nth i (ch_slots ch) None); [|exact IHt]. now rewrite G. }
  (* and the InitHello is not a repeated one *)
  assert (X : existsb (fun x => match x with Some se => c_rank se =? w_rank w | None => false end) (ch_slots ch) = false).
  { apply Bool.not_true_is_false. intros (x & Hin & E)%existsb_exists. now rewrite (G x Hin) in E. }
  unfold chan_deliver. now rewrite L, Ek, X, Hts, (bound_check _ _ _ Bd).
Qed.

(* the loop's test that keeps an InitHello from every session but the one created from it *)
Definition ih_filter (w : wire) (se0 : csess) : bool :=
  match w_kind w with MIH => negb (c_rank se0 =? w_rank w) | _ => false end.

(* a session that refuses the message, or accepts it without effect, is passed by *)
Lemma loop_noop accept snap w i t ch :
  (forall se0 j se, nth i snap None = Some se0 -> find_tag ch (c_tag se0) = Some j -> slot ch j = Some se ->
     sess_deliver se w = Ok SErr \/ sess_deliver se w = Ok (SOk se false None)) ->
  deliver_loop accept snap w (i :: t) ch = deliver_loop accept snap w t ch.
Proof.
  intros H. cbn [deliver_loop]. destruct (nth i snap None) as [se0|]; [|reflexivity].
  fold (ih_filter w se0). destruct (ih_filter w se0); [reflexivity|].
  destruct (find_tag ch (c_tag se0)) as [j|] eqn:Ef; [|reflexivity].
  destruct (slot ch j) as [se|] eqn:Es; [|reflexivity].
  destruct (H se0 j se eq_refl Ef Es) as [-> | ->]; [reflexivity|].
  (* the session is as it was: it has not become ready, nothing is handed up or sent, the loop goes on from ch *)
  cbv zeta. rewrite (set_slot_same ch j se Es). now destruct (c_ready se).
Qed.

(* what the loop does after the visit v of a session that went to se' *)
Definition after_visit accept snap (w : wire) (t : list nat) (se' : csess) (a : bool) (o : option msg) (v : chan * bool) :
    result (chan * dres) + chan :=
  let (ch2, okp) := v in
  if negb okp then inl (Ok (ch2, DErr))
  else if a then inl (Ok (if has_tag (c_tag se') (slot ch2 1) then set_lr ch2 0 else ch2,
                          DApp (w_from w) (msg_nonce (w_kind w))))
  else match o with
       | None => deliver_loop accept snap w t ch2
       | Some k => inl (Ok (ch2, DSend (emit ch2 se' k)))
       end.

(* a session that accepts the message is visited, and the loop goes on as after_visit says *)
Lemma loop_visit accept snap w i t ch se0 j se se' a o :
  nth i snap None = Some se0 -> ih_filter w se0 = false ->
  find_tag ch (c_tag se0) = Some j -> slot ch j = Some se -> sess_deliver se w = Ok (SOk se' a o) ->
  negb (c_ready se) && c_ready se' && negb (Nat.eqb i 2) = false ->
  deliver_loop accept snap w (i :: t) ch = after_visit accept snap w t se' a o (visit accept ch j se se').
Proof.
  intros E F T S D B. cbn [deliver_loop]. rewrite E. unfold ih_filter in F. rewrite F, T, S, D.
  cbv zeta. rewrite B. reflexivity.
Qed.

(* ... in particular the prospective one, when no other session has its tag *)
Lemma loop_prospective accept w t ch se se' a o :
  ih_filter w se = false -> ch_s2 ch = Some se -> otag_ne (ch_s0 ch) (c_tag se) -> otag_ne (ch_s1 ch) (c_tag se) ->
  sess_deliver se w = Ok (SOk se' a o) ->
  deliver_loop accept (ch_slots ch) w (2%nat :: t) ch = after_visit accept (ch_slots ch) w t se' a o (visit accept ch 2 se se').
Proof.
  intros F E2 T0 T1 D. apply (loop_visit accept _ w 2 t ch se 2 se); auto.
  - apply find_tag_2; [now apply otag_ne_has..|]. rewrite E2. cbn. apply N.eqb_refl.
  - apply andb_false_r.
Qed.

Lemma visit_promote accept ch se se' k :
  negb (c_ready se) && c_ready se' = true -> c_rkey se' = Some k -> bound_ok accept ch k ->
  visit accept ch 2 se se' = (promoted ch se' k, true).
Proof.
  intros B K Bd. unfold visit. rewrite B, on_ready_eq. change (slot (set_slot ch 2 (Some se')) 2) with (Some se').
  cbv iota. rewrite K. cbv zeta.
  now rewrite (bound_check accept (set_slot ch 2 (Some se')) k Bd).
Qed.

(* Step 2: the initiator reads the RespHello.  (In this and the next steps rk' and ts'
   stand for the rank and timestamp fields of the wire, which only an InitHello uses.)
   The last line of the proof evaluates Session.Deliver on the concrete session and
   message; the one test that is open is auth's comparison of the tag the message is
   keyed for with the session's own, closed by N.eqb_refl; the rest is computation. *)
Lemma step_rh accept fresh A fA fB kB rank ts rk' ts' :
  ch_s2 A = Some (init0 fA rank ts) -> otag_ne (ch_s0 A) fA -> otag_ne (ch_s1 A) fA ->
  let rh := mkW kB fB (Some fA) MRH rk' ts' in
  let I2 := init2 fA fB kB rank ts in
  chan_deliver accept fresh A rh = Ok (set_slot A 2 (Some I2), DSend (emit (set_slot A 2 (Some I2)) I2 MID)).
Proof.
  intros E2 T0 T1 rh I2. unfold chan_deliver. change (deliver_order rh) with [2; 1; 0]%nat.
  rewrite (loop_prospective accept rh _ A _ I2 false (Some MID) eq_refl E2 T0 T1); [reflexivity|].
  unfold sess_deliver, init0, rh, auth, opt_eqb. cbn [w_to w_from c_tag c_peer w_kind]. rewrite ?N.eqb_refl. vm_compute. reflexivity.
Qed.

(* step 3: the responder reads the InitDone *)
Lemma step_id accept fresh B fA fB kA rank ts rk' ts' :
  ch_s2 B = Some (resp1 fB fA kA rank ts) -> otag_ne (ch_s0 B) fB -> otag_ne (ch_s1 B) fB ->
  bound_ok accept B kA ->
  let id := mkW kA fA (Some fB) MID rk' ts' in
  let R3 := resp3 fB fA kA rank ts in
  let B3 := promoted B R3 kA in
  chan_deliver accept fresh B id = Ok (B3, DSend (emit B3 R3 MRD)).
Proof.
  intros E2 T0 T1 Bd id R3 B3. unfold chan_deliver. change (deliver_order id) with [2; 1; 0]%nat.
  rewrite (loop_prospective accept id _ B _ R3 false (Some MRD) eq_refl E2 T0 T1).
  - now rewrite (visit_promote accept B (resp1 fB fA kA rank ts) R3 kA eq_refl eq_refl Bd).
  - unfold sess_deliver, resp1, id, auth, opt_eqb. cbn [w_to w_from c_tag c_peer w_kind]. rewrite ?N.eqb_refl. vm_compute. reflexivity.
Qed.

(* a ready session takes a RespDone for no news: it refuses it or accepts it without effect or reply *)
Lemma ready_ignores_resp_done x w : c_ready x = true -> w_kind w = MRD ->
  sess_deliver x w = Ok SErr \/ sess_deliver x w = Ok (SOk x false None).
Proof.
  intros R K. unfold sess_deliver. rewrite K. cbn [msg_nonce].
  destruct (expired x || (MAX_NONCE <=? s_nonce (cs x))); [now left|].
  unfold c_ready, is_ready, can_send, can_receive in R.
  (* nonce 3 is neither a RespHello's nor an InitDone's: the first two stage tests fail *)
  change (3 =? 1) with false. change (3 =? 2) with false. rewrite !andb_false_r.
  destruct (s_init (cs x)) eqn:Ei; cbn [andb orb negb].
  - (* A ready initiator is past stage 2, where it would read a RespDone.  3 is odd, so it
       takes the message for a repeat and answers with its current handshake message:
       at stage 3 and beyond it has none. *)
    assert (E2 : (s_hs (cs x) =? 2) = false) by lia. assert (E0 : (s_hs (cs x) =? 0) = false) by lia.
    rewrite E2. right. unfold write_handshake. rewrite Ei, E0, E2.
    now destruct (4 <=? s_hs (cs x)).
  - (* a responder reads even nonces only *)
    now left.
Qed.

Definition oready (x : option csess) : Prop := match x with Some se => c_ready se = true | None => True end.

(* Step 4: the initiator reads the RespDone.  The session accepts it and is promoted, but
   has nothing to reply, so the loop goes on (channel.go: `if len(out) == 0 { continue }`),
   finds no other taker, and Channel.Deliver ends in "message did not match a session": DErr. *)
Lemma step_rd accept fresh A fA fB kB rank ts rk' ts' :
  ch_s2 A = Some (init2 fA fB kB rank ts) -> otag_ne (ch_s0 A) fA -> otag_ne (ch_s1 A) fA ->
  oready (ch_s1 A) -> bound_ok accept A kB ->
  let rd := mkW kB fB (Some fA) MRD rk' ts' in
  let I4 := init4 fA fB kB rank ts in
  let A4 := promoted A I4 kB in
  chan_deliver accept fresh A rd = Ok (A4, DErr).
Proof.
  intros E2 T0 T1 R1 Bd rd I4 A4. unfold chan_deliver. change (deliver_order rd) with [2; 1; 0]%nat.
  rewrite (loop_prospective accept rd _ A _ I4 false None eq_refl E2 T0 T1).
  2:{ unfold sess_deliver, init2, rd, auth, opt_eqb. cbn [w_to w_from c_tag c_peer w_kind]. rewrite ?N.eqb_refl. vm_compute. reflexivity. }
  rewrite (visit_promote accept A (init2 fA fB kB rank ts) I4 kB eq_refl eq_refl Bd). cbn [after_visit negb].
  (* A4 = promoted A I4 kB holds A's former current session in slot 0 (ready by R1), I4 in slot 1 (ready by
     computation) and nothing in slot 2: whichever slot the loop looks at, the RespDone means nothing to a ready session *)
  rewrite !loop_noop; [reflexivity|..].
  all: intros se0 j se _ _ Es; apply ready_ignores_resp_done; [|reflexivity].
  all: destruct j as [|[|[|j]]]; cbn in Es; try discriminate; [rewrite Es in R1; exact R1|now injection Es as <-].
Qed.

(* step 5: the pending Send goes out through the new session *)
Lemma step_send ch fA fB kB rank ts :
  ch_s1 ch = Some (init4 fA fB kB rank ts) -> (ch_lr ch <= KEEPALIVE)%Z ->
  exists ch', chan_send ch = (ch', Some (mkW (ch_key ch) fA (Some fB) (MData NONCE_POST_HANDSHAKE) rank ts)).
Proof.
  intros E1 Hlr%Z.ltb_ge. destruct (expire_spec ch) as (S1 & _ & K & _). rewrite E1, Hlr in S1.
  rewrite chan_send_eq, S1. cbn. unfold emit. rewrite K. eexists. reflexivity.
Qed.

(* step 6: the responder hands the data up *)
Lemma step_data accept fresh B fA fB kA rank ts rk' ts' :
  ch_s1 B = Some (resp3 fB fA kA rank ts) -> otag_ne (ch_s0 B) fB ->
  let data := mkW kA fA (Some fB) (MData NONCE_POST_HANDSHAKE) rk' ts' in
  chan_deliver accept fresh B data =
  Ok (set_lr (set_slot B 1 (Some (resp3d fB fA kA rank ts))) 0, DApp fA NONCE_POST_HANDSHAKE).
Proof.
  intros E1 T0 data. unfold chan_deliver. change (deliver_order data) with [0; 1; 2]%nat.
  pose proof (proj1 (otag_ne_has _ _) T0) as G.
  (* the previous session has another tag than the one the data is keyed for *)
  rewrite loop_noop.
  2:{ intros se0 j se E0 Ef Es. left. apply (data_wrong_tag se data fB NONCE_POST_HANDSHAKE); auto.
      apply find_tag_has in Ef. rewrite Es in Ef. cbn in Ef, E0. apply N.eqb_eq in Ef. rewrite E0 in T0. cbn in T0. congruence. }
  rewrite (loop_visit accept _ data 1 _ B (resp3 fB fA kA rank ts) 1 (resp3 fB fA kA rank ts) (resp3d fB fA kA rank ts) true None).
  (* first the main goal, then loop_visit's six premises in order.  resp3 was ready before, so visit only stores
     the session; accepted data ends the loop with DApp, and the session being the current one (the tag test,
     N.eqb_refl) lastReceived is reset *)
  - unfold visit. change (negb _ && _) with false. cbn. rewrite N.eqb_refl. reflexivity.
  - exact E1.
  - reflexivity.
  - unfold find_tag. cbn [slot]. rewrite E1. change (c_tag (resp3 fB fA kA rank ts)) with fB. rewrite G. cbn. now rewrite N.eqb_refl.
  - exact E1.
  - unfold sess_deliver, resp3, data, auth, opt_eqb. cbn [w_to w_from c_tag c_peer w_kind]. rewrite ?N.eqb_refl. vm_compute. reflexivity.
  - reflexivity.
Qed.

Lemma rekey_starts fA rank ts A :
  ch_s2 (expire A) = None ->
  ch_s2 (fst (chan_rekey fA rank ts A)) = Some (init0 fA rank ts) /\
  In (emit (fst (chan_rekey fA rank ts A)) (init0 fA rank ts) MIH) (snd (chan_rekey fA rank ts A)).
Proof.
  intros E. unfold chan_rekey. cbn [slot]. rewrite E. fold (init0 fA rank ts).
  unfold chan_handshake. cbn [fst snd].
  set (ch' := expire (set_slot (expire A) 2 (Some (init0 fA rank ts)))).
  (* the session created here has age 0, so the expiry inside chan_handshake keeps it (by computation) *)
  assert (S2 : ch_s2 ch' = Some (init0 fA rank ts)) by exact (proj1 (proj2 (expire_spec _))).
  split; [exact S2|]. apply in_flat_map. exists (Some (init0 fA rank ts)). split.
  - unfold ch_slots. rewrite S2. cbn. auto.
  - (* it is not ready, and its handshake message is the InitHello *) cbn. left. reflexivity.
Qed.

(* steps 2..6: from the moment the peer holds the responder session *)
Definition established (accept : N -> bool) (A B1 : chan) (fA fB f1 f2 f3 f4 rank ts : N) : Prop :=
  exists rh A2 id B3 rd A4 A5 data B4,
    rh = emit B1 (resp1 fB fA (ch_key A) rank ts) MRH /\
    chan_deliver accept f1 A rh = Ok (A2, DSend id) /\
    chan_deliver accept f2 B1 id = Ok (B3, DSend rd) /\
    chan_deliver accept f3 A2 rd = Ok (A4, DErr) /\
    chan_send A4 = (A5, Some data) /\
    chan_deliver accept f4 B3 data = Ok (B4, DApp fA NONCE_POST_HANDSHAKE) /\
    ch_s1 A4 = Some (init4 fA fB (ch_key B1) rank ts) /\ ch_remote A4 = Some (ch_key B1) /\ ch_s2 A4 = None /\
    ch_s1 B4 = Some (resp3d fB fA (ch_key A) rank ts) /\ ch_remote B4 = Some (ch_key A) /\ ch_s2 B4 = None.

Theorem establish_tail accept A B1 fA fB f1 f2 f3 f4 rank ts :
  ch_s2 A = Some (init0 fA rank ts) -> otag_ne (ch_s0 A) fA -> otag_ne (ch_s1 A) fA ->
  oready (ch_s1 A) -> bound_ok accept A (ch_key B1) ->
  ch_s2 B1 = Some (resp1 fB fA (ch_key A) rank ts) ->
  otag_ne (ch_s0 B1) fB -> otag_ne (ch_s1 B1) fB -> bound_ok accept B1 (ch_key A) ->
  established accept A B1 fA fB f1 f2 f3 f4 rank ts.
Proof.
  intros EA TA0 TA1 RA1 BdA EB TB0 TB1 BdB.
  destruct A as [kA a0 a1 a2 ra rtsa lra], B1 as [kB b0 b1 b2 rb rtsb lrb].
  cbn [ch_s0 ch_s1 ch_s2 ch_key ch_rts] in *. subst a2 b2.
  set (A := mkCh kA a0 a1 (Some (init0 fA rank ts)) ra rtsa lra).
  set (B1 := mkCh kB b0 b1 (Some (resp1 fB fA kA rank ts)) rb rtsb lrb).
  (* the channels are taken apart so that the slots of A2, B3, A4 compute: set_slot _ 2 leaves slots 0, 1 and
     the bound key alone (so TA0, TA1, RA1, BdA still hold of A2); promoted moves the current session to the
     previous slot (hence TB1 in the last step) and resets lastReceived to 0 (hence discriminate) *)
  pose proof (step_rh accept f1 A fA fB kB rank ts rank ts eq_refl TA0 TA1) as S2. cbv zeta in S2.
  set (A2 := set_slot A 2 (Some (init2 fA fB kB rank ts))) in *.
  pose proof (step_id accept f2 B1 fA fB kA rank ts rank ts eq_refl TB0 TB1 BdB) as S3. cbv zeta in S3.
  set (B3 := promoted B1 (resp3 fB fA kA rank ts) kA) in *.
  pose proof (step_rd accept f3 A2 fA fB kB rank ts rank ts eq_refl TA0 TA1 RA1 BdA) as S4. cbv zeta in S4.
  set (A4 := promoted A2 (init4 fA fB kB rank ts) kB) in *.
  destruct (step_send A4 fA fB kB rank ts eq_refl ltac:(discriminate)) as [A5 S5].
  pose proof (step_data accept f4 B3 fA fB kA rank ts rank ts eq_refl TB1) as S6. cbv zeta in S6.
  unfold established. do 9 eexists.
  split; [reflexivity|]. split; [exact S2|]. split; [exact S3|]. split; [exact S4|]. split; [exact S5|]. split; [exact S6|].
  repeat split; reflexivity.
Qed.

Theorem establish accept A B fA fB f1 f2 f3 f4 rank ts :
  (* the side with the pending Send: its rekey timer has created the initiator session *)
  ch_s2 A = Some (init0 fA rank ts) -> otag_ne (ch_s0 A) fA -> otag_ne (ch_s1 A) fA ->
  oready (ch_s0 A) -> oready (ch_s1 A) -> bound_ok accept A (ch_key B) ->
  (* the peer: no handshake in progress, whatever it remembers of earlier sessions *)
  ch_s2 B = None -> orank_ne (ch_s0 B) rank -> orank_ne (ch_s1 B) rank ->
  otag_ne (ch_s0 B) fB -> otag_ne (ch_s1 B) fB -> ts <? ch_rts B = false -> bound_ok accept B (ch_key A) ->
  exists B1, chan_deliver accept fB B (emit A (init0 fA rank ts) MIH) =
               Ok (B1, DSend (emit B1 (resp1 fB fA (ch_key A) rank ts) MRH)) /\
             established accept A B1 fA fB f1 f2 f3 f4 rank ts.
Proof.
  intros EA TA0 TA1 _ RA1 BdA EB RB0 RB1 TB0 TB1 Hts BdB.
  exists (set_slot B 2 (Some (resp1 fB fA (ch_key A) rank ts))). split.
  - rewrite (deliver_hello accept fB B (emit A (init0 fA rank ts) MIH) eq_refl RB0 RB1); [now rewrite EB|now rewrite EB|exact Hts|exact BdB].
  - apply establish_tail; auto.
Qed.

(* Both sides started a handshake at once; the InitHellos cross.  Exactly one
   initiator session survives (the one whose id ranks lower), the other side
   turns responder, and from there the handshake completes as above. *)
Theorem simultaneous_open_converges accept A B fA fX fB f0 f1 f2 f3 f4 rA tsA rB tsB :
  rA < rB ->
  ch_s2 A = Some (init0 fA rA tsA) -> otag_ne (ch_s0 A) fA -> otag_ne (ch_s1 A) fA ->
  oready (ch_s0 A) -> oready (ch_s1 A) -> bound_ok accept A (ch_key B) ->
  orank_ne (ch_s0 A) rB -> orank_ne (ch_s1 A) rB -> tsB <? ch_rts A = false ->
  ch_s2 B = Some (init0 fX rB tsB) -> orank_ne (ch_s0 B) rA -> orank_ne (ch_s1 B) rA ->
  otag_ne (ch_s0 B) fB -> otag_ne (ch_s1 B) fB -> tsA <? ch_rts B = false -> bound_ok accept B (ch_key A) ->
  (* A keeps its initiator and answers B's hello with its own *)
  chan_deliver accept f0 A (emit B (init0 fX rB tsB) MIH) = Ok (A, DSend (emit A (init0 fA rA tsA) MIH)) /\
  (* B gives up its initiator for a responder session, and the handshake completes *)
  exists B1, chan_deliver accept fB B (emit A (init0 fA rA tsA) MIH) =
               Ok (B1, DSend (emit B1 (resp1 fB fA (ch_key A) rA tsA) MRH)) /\
             established accept A B1 fA fB f1 f2 f3 f4 rA tsA.
Proof.
  intros Lt EA TA0 TA1 _ RA1 BdA QA0 QA1 HtsA EB RB0 RB1 TB0 TB1 HtsB BdB.
  assert (Ne : rA <> rB) by lia. split.
  - (* the side whose session id ranks lower keeps its own initiator session and repeats its InitHello *)
    rewrite (deliver_hello accept f0 A (emit B (init0 fX rB tsB) MIH) eq_refl QA0 QA1); [|now rewrite EA|exact HtsA|exact BdA].
    rewrite EA. cbn [emit w_rank cs init0 s_init new_sess c_rank]. apply N.ltb_lt in Lt. now rewrite Lt.
  - (* the other one gives way *)
    exists (set_slot B 2 (Some (resp1 fB fA (ch_key A) rA tsA))). split; [|apply establish_tail; auto].
    rewrite (deliver_hello accept fB B (emit A (init0 fA rA tsA) MIH) eq_refl RB0 RB1); [|rewrite EB; cbn; congruence|exact HtsB|exact BdB].
    rewrite EB. cbn [emit w_rank cs init0 s_init new_sess c_rank]. assert (Nl : (rB <? rA) = false) by lia. now rewrite Nl.
Qed.

(* the same from ChannelNP.InvP, the invariant of every history whose new sessions get fresh tags (cstep_np) *)
Corollary establish_inv accept A B fA fB f1 f2 f3 f4 rank ts :
  InvP accept A -> InvP accept B ->
  ch_s2 A = Some (init0 fA rank ts) -> bound_ok accept A (ch_key B) ->
  ch_s2 B = None -> fresh_tag B fB -> orank_ne (ch_s0 B) rank -> orank_ne (ch_s1 B) rank ->
  ts <? ch_rts B = false -> bound_ok accept B (ch_key A) ->
  exists B1, chan_deliver accept fB B (emit A (init0 fA rank ts) MIH) =
               Ok (B1, DSend (emit B1 (resp1 fB fA (ch_key A) rank ts) MRH)) /\
             established accept A B1 fA fB f1 f2 f3 f4 rank ts.
Proof.
  (* From InvP A: slots 0 and 1 are established (EA0, EA1), hence ready (R below), and their tags differ from
     the prospective session's (DA1, DA2); from fresh_tag B fB the two otag_ne of B (G).  The invariant of B is
     not used: what is needed of B is hypothesis by hypothesis in the statement. *)
  intros [[EA0 [EA1 _]] [_ [DA0 [DA1 DA2]]]] _ EA BdA EB [FB0 [FB1 _]] RB0 RB1 Hts BdB.
  (* odiff x (Some se) is otag_ne x (c_tag se), by computation *)
  rewrite EA in DA1, DA2. change (otag_ne (ch_s0 A) fA) in DA1. change (otag_ne (ch_s1 A) fA) in DA2.
  assert (G : forall x t, has_tag t x = false -> otag_ne x t) by (intros x t; apply otag_ne_has).
  assert (R : forall ch x, est ch x -> oready x).
  { intros ch [se|] H; [|exact I]. cbn in *. tauto. }
  apply establish; auto.
  - eapply R; eauto.
  - eapply R; eauto.
Qed.

(* A Send is pending on A (no current session survives the expiry step, no handshake
   in progress): the rekey timer it arms creates the initiator session and emits an
   InitHello; delivered to a peer with no handshake in progress, the handshake
   completes, both sides are bound to each other and the data is handed up. *)
Theorem pending_send_completes accept A B fA fB f1 f2 f3 f4 rank ts :
  InvP accept A -> InvP accept B -> fresh_tag A fA -> ch_s2 (expire A) = None ->
  bound_ok accept A (ch_key B) ->
  ch_s2 B = None -> fresh_tag B fB -> orank_ne (ch_s0 B) rank -> orank_ne (ch_s1 B) rank ->
  ts <? ch_rts B = false -> bound_ok accept B (ch_key A) ->
  let A1 := fst (chan_rekey fA rank ts A) in
  In (emit A1 (init0 fA rank ts) MIH) (snd (chan_rekey fA rank ts A)) /\
  exists B1, chan_deliver accept fB B (emit A1 (init0 fA rank ts) MIH) =
               Ok (B1, DSend (emit B1 (resp1 fB fA (ch_key A1) rank ts) MRH)) /\
             established accept A1 B1 fA fB f1 f2 f3 f4 rank ts.
Proof.
  intros IA IB FA E BdA EB FB RB0 RB1 Hts BdB A1.
  destruct (rekey_starts fA rank ts A E) as [S2 Hin]. destruct (rekey_meta fA rank ts A) as [R K].
  split; [exact Hin|]. apply establish_inv; auto.
  - apply rekey_np; auto.
  - unfold bound_ok, A1. rewrite R. exact BdA.
  - unfold A1. rewrite K. exact BdB.
Qed.

(* retransmission: every firing of the handshake timer re-sends the message the
   prospective session is waiting to have answered, for as long as that session lives *)
Definition awaiting (se : csess) : Prop :=
  (s_init (cs se) = true /\ (s_hs (cs se) = 0 \/ s_hs (cs se) = 2)) \/ (s_init (cs se) = false /\ s_hs (cs se) = 1).

(* all it needs of the channel is that the waiting session has its message cached *)
Lemma timer_retransmits ch se :
  cache_ok (cs se) -> ch_s2 ch = Some se -> expired se = false -> awaiting se ->
  exists k, write_handshake (cs se) = Ok (Some k) /\
            ch_s2 (fst (chan_handshake ch)) = Some se /\
            In (emit (fst (chan_handshake ch)) se k) (snd (chan_handshake ch)).
Proof.
  intros C2 E2 Ex Aw. destruct (write_handshake_cached _ C2) as [r W].
  (* an awaiting session is at a stage that has a message *)
  assert (Hr : exists k, r = Some k).
  { unfold write_handshake in W. destruct Aw as [[Ei [E|E]]|[Ei E]]; rewrite Ei, E in W; cbn in W;
      destruct (cached _ _); inversion W; eauto. }
  destruct Hr as [k ->]. exists k. split; [exact W|].
  assert (NR : c_ready se = false).
  { unfold c_ready, is_ready, can_send, can_receive. destruct Aw as [[Ei [E0|E2']]|[Ei E1]]; rewrite Ei, ?E0, ?E2', ?E1; reflexivity. }
  unfold chan_handshake. cbn [fst snd].
  assert (S2 : ch_s2 (expire ch) = Some se) by (rewrite (proj1 (proj2 (expire_spec ch))), E2, Ex; reflexivity).
  split; [exact S2|].
  apply in_flat_map. exists (Some se). split.
  - unfold ch_slots. rewrite S2. cbn. auto.
  - rewrite NR, W. cbn. auto.
Qed.

Theorem handshake_timer_retransmits accept ch se :
  InvP accept ch -> ch_s2 ch = Some se -> expired se = false -> awaiting se ->
  exists k, write_handshake (cs se) = Ok (Some k) /\
            ch_s2 (fst (chan_handshake ch)) = Some se /\
            In (emit (fst (chan_handshake ch)) se k) (snd (chan_handshake ch)).
Proof. intros [_ [[_ [_ C2]] _]] E2. rewrite E2 in C2. now apply timer_retransmits. Qed.

(* the hypotheses are satisfiable by states that carry sessions from the past *)
Example establish_not_vacuous :
  let old (t : N) (ini : bool) (k : N) := mkCS (with_hs (new_sess ini) 4 None 40) t (Some (t + 100)) (Some k) t 5 30 in
  let A := mkCh 1 (Some (old 10 true 2)) (Some (old 11 false 2)) (Some (init0 12 77 9)) (Some 2) 5 100 in
  let B := mkCh 2 (Some (old 20 true 1)) (Some (old 21 false 1)) None (Some 1) 5 100 in
  InvP (fun _ => true) A /\ InvP (fun _ => true) B /\
  bound_ok (fun _ => true) A 2 /\ bound_ok (fun _ => true) B 1 /\ fresh_tag B 22 /\
  orank_ne (ch_s0 B) 77 /\ orank_ne (ch_s1 B) 77 /\ (9 <? ch_rts B) = false.
Proof.
  cbv zeta. unfold InvP, Inv, est, owf, onr, swf, ocache, tags_distinct, odiff, bound_ok, fresh_tag, orank_ne, cache_ok.
  cbn. repeat split; try discriminate; try reflexivity; try lia; auto; try (intros; discriminate).
Qed.

Print Assumptions establish.
Print Assumptions establish_inv.
Print Assumptions simultaneous_open_converges.
Print Assumptions pending_send_completes.
Print Assumptions handshake_timer_retransmits.
