(* p2p.PeerID text: facts about the base64 alphabet, the round trips between bytes, sextets and
   text, order preservation (digit strings of one length compare as the numbers they denote),
   and MarshalText / UnmarshalText. lex_compare (bytes.Compare) is defined in Model.Distance. *)
From P2PV Require Import Lib.Base Lib.Base64 Model.Distance Proofs.BaseP.
From Coq Require Import Lia ZifyBool ZifyN ZifyNat.
Open Scope N_scope.

Lemma list_ind3 {A} (P : list A -> Prop) :
  P [] -> (forall a, P [a]) -> (forall a b, P [a; b]) ->
  (forall a b c t, P t -> P (a :: b :: c :: t)) -> forall l, P l.
Proof.
  intros H0 H1 H2 H3. fix IH 1.
  intros [|a [|b [|c t]]]; [exact H0|apply H1|apply H2|apply H3, IH].
Qed.

Lemma list_ind4 {A} (P : list A -> Prop) :
  P [] -> (forall a, P [a]) -> (forall a b, P [a; b]) -> (forall a b c, P [a; b; c]) ->
  (forall a b c d t, P t -> P (a :: b :: c :: d :: t)) -> forall l, P l.
Proof.
  intros H0 H1 H2 H3 H4. fix IH 1.
  intros [|a [|b [|c [|d t]]]]; [exact H0|apply H1|apply H2|apply H3|apply H4, IH].
Qed.

Definition sextets64 : list N := map N.of_nat (seq 0 64).

Lemma sextets64_all (p : N -> bool) : forallb p sextets64 = true -> forall s, s < 64 -> p s = true.
Proof.
  intros H s Hs. rewrite forallb_forall in H. apply H, in_map_iff.
  exists (N.to_nat s). split; [lia|]. apply in_seq. lia.
Qed.

(* no character occurs twice in the table: finite by nature, one evaluation over the 64 sextets *)
Lemma index_alpha s : s < 64 -> index_of (alpha s) = Some s.
Proof.
  intros H.
  pose proof (sextets64_all (fun s => match index_of (alpha s) with Some x => x =? s | None => false end)
                ltac:(vm_compute; reflexivity) s H) as G. cbv beta in G.
  destruct (index_of (alpha s)); [|discriminate]. f_equal. lia.
Qed.

Lemma index_in_nth c l : forall i s, index_in c l i = Some s ->
  exists n, s = i + N.of_nat n /\ (n < length l)%nat /\ nth n l 0 = c.
Proof.
  induction l as [|h t IH]; intros i s; cbn [index_in]; [discriminate|].
  destruct (N.eqb_spec h c) as [->|_].
  - intros E; injection E as <-. exists 0%nat. cbn. split; [lia|]. split; [lia|reflexivity].
  - intros E. destruct (IH _ _ E) as (n & -> & Hn & Hc). exists (S n). cbn [length nth]. split; [lia|]. split; [lia|exact Hc].
Qed.

Lemma alpha_index c s : index_of c = Some s -> alpha s = c /\ s < 64.
Proof.
  intros E. destruct (index_in_nth c alphabet 0 s E) as (n & -> & Hn & Hc).
  unfold alpha. rewrite N.add_0_l, Nat2N.id. split; [exact Hc|]. change (length alphabet) with 64%nat in Hn. lia.
Qed.

Lemma alpha_lt256 s : alpha s < 256.
Proof.
  unfold alpha. destruct (Nat.lt_ge_cases (N.to_nat s) (length alphabet)) as [Hl|Hl].
  - assert (A : forallb (fun x => x <? 256) alphabet = true) by (vm_compute; reflexivity).
    rewrite forallb_forall in A. specialize (A _ (nth_In alphabet 0 Hl)). lia.
  - rewrite nth_overflow by assumption. lia.
Qed.

Lemma increasing_upto (f : N -> N) n : (forall s, N.succ s < n -> f s < f (N.succ s)) ->
  forall t, t < n -> forall s, s < t -> f s < f t.
Proof.
  intros Hf t. induction t as [|t IH] using N.peano_ind; intros Ht s Hs; [lia|].
  destruct (N.eq_dec s t) as [->|Hne]; [now apply Hf|].
  apply N.lt_trans with (f t); [apply IH; lia|now apply Hf].
Qed.

(* the alphabet is strictly increasing in ASCII: each entry is compared with the next *)
Lemma alpha_increasing s t : s < t -> t < 64 -> alpha s < alpha t.
Proof.
  intros Hs Ht. apply (increasing_upto alpha 64); try assumption.
  intros u Hu.
  pose proof (sextets64_all (fun s => (64 <=? N.succ s) || (alpha s <? alpha (N.succ s)))
                ltac:(vm_compute; reflexivity) u ltac:(lia)) as G. cbv beta in G. lia.
Qed.

Lemma alpha_mono s t : s < 64 -> t < 64 -> (alpha s <? alpha t) = (s <? t).
Proof.
  intros Hs Ht. destruct (N.ltb_spec s t) as [H|H].
  - now apply N.ltb_lt, alpha_increasing.
  - apply N.ltb_ge. destruct (N.eq_dec s t) as [->|Hne]; [reflexivity|].
    apply N.lt_le_incl, alpha_increasing; lia.
Qed.

(* Forall (fun x => x < n) l, by recursion on l: the encoders work on groups of three and four
   leading elements, whose bounds cbn then lays out as a conjunction that intro patterns and lia
   take as it is. *)
Fixpoint all_lt (n : N) (l : list N) : Prop :=
  match l with [] => True | x :: t => x < n /\ all_lt n t end.

Lemma wf_all_lt b : wf_bytes b = true <-> all_lt 256 b.
Proof.
  induction b as [|x b IH]; cbn [wf_bytes forallb all_lt]; [tauto|].
  fold (wf_bytes b). unfold wf_byte. rewrite Bool.andb_true_iff, N.ltb_lt, IH. tauto.
Qed.

(* The arithmetic of one group, once each way: three bytes below 256 and the four sextets made of
   them (group1-3: the sextets are below 64, and regrouping them gives the bytes back; an
   incomplete group leaves zero bits at the end of its last sextet), four sextets below 64 and
   the three bytes made of them (ungroup2-4). lia is given the quotients and remainders as
   variables (div_mod_qr): with b / d and b mod d left in the goal it is much slower. *)
Lemma div_mod_qr b d : d <> 0 -> exists q r, b = d * q + r /\ r < d /\ b / d = q /\ b mod d = r.
Proof.
  intros H. exists (b / d), (b mod d).
  repeat split; [apply N.div_mod; exact H|apply N.mod_lt; exact H].
Qed.

Lemma group1 b0 : b0 < 256 ->
  let s0 := b0 / 4 in let s1 := b0 mod 4 * 16 in
  (s0 < 64 /\ s1 < 64) /\ s1 mod 16 = 0 /\ s0 * 4 + s1 / 16 = b0.
Proof.
  intros H0. cbv zeta.
  destruct (div_mod_qr b0 4) as (q0 & r0 & E0 & L0 & -> & ->); [discriminate|].
  repeat split; lia.
Qed.

Lemma group2 b0 b1 : b0 < 256 -> b1 < 256 ->
  let s0 := b0 / 4 in let s1 := b0 mod 4 * 16 + b1 / 16 in let s2 := b1 mod 16 * 4 in
  (s0 < 64 /\ s1 < 64 /\ s2 < 64) /\ s2 mod 4 = 0 /\
  s0 * 4 + s1 / 16 = b0 /\ s1 mod 16 * 16 + s2 / 4 = b1.
Proof.
  intros H0 H1. cbv zeta.
  destruct (div_mod_qr b0 4) as (q0 & r0 & E0 & L0 & -> & ->); [discriminate|].
  destruct (div_mod_qr b1 16) as (q1 & r1 & E1 & L1 & -> & ->); [discriminate|].
  repeat split; lia.
Qed.

Lemma group3 b0 b1 b2 : b0 < 256 -> b1 < 256 -> b2 < 256 ->
  let s0 := b0 / 4 in let s1 := b0 mod 4 * 16 + b1 / 16 in
  let s2 := b1 mod 16 * 4 + b2 / 64 in let s3 := b2 mod 64 in
  (s0 < 64 /\ s1 < 64 /\ s2 < 64 /\ s3 < 64) /\
  s0 * 4 + s1 / 16 = b0 /\ s1 mod 16 * 16 + s2 / 4 = b1 /\ s2 mod 4 * 64 + s3 = b2.
Proof.
  intros H0 H1 H2. cbv zeta.
  destruct (div_mod_qr b0 4) as (q0 & r0 & E0 & L0 & -> & ->); [discriminate|].
  destruct (div_mod_qr b1 16) as (q1 & r1 & E1 & L1 & -> & ->); [discriminate|].
  destruct (div_mod_qr b2 64) as (q2 & r2 & E2 & L2 & -> & ->); [discriminate|].
  repeat split; lia.
Qed.

Lemma ungroup2 s0 s1 : s0 < 64 -> s1 < 64 -> s1 mod 16 = 0 ->
  let b0 := s0 * 4 + s1 / 16 in
  b0 < 256 /\ b0 / 4 = s0 /\ b0 mod 4 * 16 = s1.
Proof.
  intros H0 H1. cbv zeta.
  destruct (div_mod_qr s1 16) as (q1 & r1 & E1 & L1 & -> & ->); [discriminate|].
  intros ->. repeat split; lia.
Qed.

Lemma ungroup3 s0 s1 s2 : s0 < 64 -> s1 < 64 -> s2 < 64 -> s2 mod 4 = 0 ->
  let b0 := s0 * 4 + s1 / 16 in let b1 := s1 mod 16 * 16 + s2 / 4 in
  (b0 < 256 /\ b1 < 256) /\
  b0 / 4 = s0 /\ b0 mod 4 * 16 + b1 / 16 = s1 /\ b1 mod 16 * 4 = s2.
Proof.
  intros H0 H1 H2. cbv zeta.
  destruct (div_mod_qr s1 16) as (q1 & r1 & E1 & L1 & -> & ->); [discriminate|].
  destruct (div_mod_qr s2 4) as (q2 & r2 & E2 & L2 & -> & ->); [discriminate|].
  intros ->. repeat split; lia.
Qed.

Lemma ungroup4 s0 s1 s2 s3 : s0 < 64 -> s1 < 64 -> s2 < 64 -> s3 < 64 ->
  let b0 := s0 * 4 + s1 / 16 in let b1 := s1 mod 16 * 16 + s2 / 4 in
  let b2 := s2 mod 4 * 64 + s3 in
  (b0 < 256 /\ b1 < 256 /\ b2 < 256) /\
  b0 / 4 = s0 /\ b0 mod 4 * 16 + b1 / 16 = s1 /\ b1 mod 16 * 4 + b2 / 64 = s2 /\ b2 mod 64 = s3.
Proof.
  intros H0 H1 H2 H3. cbv zeta.
  destruct (div_mod_qr s1 16) as (q1 & r1 & E1 & L1 & -> & ->); [discriminate|].
  destruct (div_mod_qr s2 4) as (q2 & r2 & E2 & L2 & -> & ->); [discriminate|].
  repeat split; lia.
Qed.

Lemma enc_sextets_lt64 b : all_lt 256 b -> all_lt 64 (enc_sextets b).
Proof.
  induction b as [| a | a b' | a b' c t IH] using list_ind3; cbn [enc_sextets all_lt].
  - trivial.
  - intros (Ha & _). destruct (group1 a Ha) as ((S0 & S1) & _). auto.
  - intros (Ha & Hb & _). destruct (group2 a b' Ha Hb) as ((S0 & S1 & S2) & _). auto.
  - intros (Ha & Hb & Hc & Ht%IH). destruct (group3 a b' c Ha Hb Hc) as ((S0 & S1 & S2 & S3) & _).
    repeat split; assumption.
Qed.

Lemma enc_sextets_len b : lenN (enc_sextets b) = (lenN b * 4 + 2) / 3.
Proof.
  induction b as [| a | a b' | a b' c t IH] using list_ind3; cbn [enc_sextets];
    rewrite ?lenN_cons, ?lenN_nil, ?IH; lia.
Qed.

Lemma dec_enc_sextets b : all_lt 256 b -> dec_sextets (enc_sextets b) = Some b.
Proof.
  induction b as [| a | a b' | a b' c t IH] using list_ind3; cbn [all_lt enc_sextets dec_sextets].
  - reflexivity.
  - intros (Ha & _). now destruct (group1 a Ha) as (_ & -> & ->).
  - intros (Ha & Hb & _). now destruct (group2 a b' Ha Hb) as (_ & -> & -> & ->).
  - intros (Ha & Hb & Hc & Ht). rewrite (IH Ht). now destruct (group3 a b' c Ha Hb Hc) as (_ & -> & -> & ->).
Qed.

Lemma to_sextets_encode s : all_lt 64 s -> to_sextets (map alpha s) = Some s.
Proof.
  induction s as [|x s IH]; cbn [all_lt map to_sextets]; [reflexivity|].
  intros [Hx Hs]. now rewrite index_alpha, IH.
Qed.

Theorem decode_encode b : wf_bytes b = true -> decode (encode b) = Some b.
Proof.
  intros H. apply wf_all_lt in H. unfold decode, encode.
  rewrite to_sextets_encode by now apply enc_sextets_lt64. now apply dec_enc_sextets.
Qed.

(* decoding is canonical: whatever decodes is the encoding of its result *)
Lemma enc_dec_sextets s : all_lt 64 s -> forall b, dec_sextets s = Some b -> enc_sextets b = s /\ all_lt 256 b.
Proof.
  induction s as [| s0 | s0 s1 | s0 s1 s2 | s0 s1 s2 s3 t IH] using list_ind4;
    cbn [all_lt dec_sextets]; intros H b.
  - intros E; injection E as <-. now split.
  - discriminate.
  - destruct H as (H0 & H1 & _).
    destruct (N.eqb_spec (s1 mod 16) 0) as [Z|]; [|discriminate]. intros E; injection E as <-.
    destruct (ungroup2 s0 s1 H0 H1 Z) as (B0 & E0 & E1). cbn [enc_sextets all_lt].
    now rewrite E0, E1.
  - destruct H as (H0 & H1 & H2 & _).
    destruct (N.eqb_spec (s2 mod 4) 0) as [Z|]; [|discriminate]. intros E; injection E as <-.
    destruct (ungroup3 s0 s1 s2 H0 H1 H2 Z) as ((B0 & B1) & E0 & E1 & E2). cbn [enc_sextets all_lt].
    now rewrite E0, E1, E2.
  - destruct H as (H0 & H1 & H2 & H3 & Ht).
    destruct (dec_sextets t) as [r|]; [|discriminate]. intros E; injection E as <-.
    destruct (IH Ht r eq_refl) as [Henc Hwf].
    destruct (ungroup4 s0 s1 s2 s3 H0 H1 H2 H3) as ((B0 & B1 & B2) & E0 & E1 & E2 & E3).
    cbn [enc_sextets all_lt]. now rewrite E0, E1, E2, E3, Henc.
Qed.

Lemma to_sextets_inv t : forall s, to_sextets t = Some s -> map alpha s = t /\ all_lt 64 s.
Proof.
  induction t as [|c t IH]; intros s; cbn [to_sextets].
  - intros E; injection E as <-. now split.
  - destruct (index_of c) as [x|] eqn:Ex; [|discriminate].
    destruct (to_sextets t) as [l|]; [|discriminate]. intros E; injection E as <-.
    destruct (IH l eq_refl) as [Hm Hl]. destruct (alpha_index c x Ex) as [Ha Hx].
    cbn [map all_lt]. now rewrite Ha, Hm.
Qed.

Theorem decode_canonical t b : decode t = Some b -> t = encode b /\ wf_bytes b = true.
Proof.
  unfold decode, encode. destruct (to_sextets t) as [s|] eqn:Es; [|discriminate]. intros Hd.
  destruct (to_sextets_inv t s Es) as [Hm Hl]. destruct (enc_dec_sextets s Hl b Hd) as [He Hw].
  split; [now rewrite He|now apply wf_all_lt].
Qed.

Lemma lex_map_alpha a : forall b, all_lt 64 a -> all_lt 64 b ->
  lex_compare (map alpha a) (map alpha b) = lex_compare a b.
Proof.
  induction a as [|x a IH]; intros [|y b]; cbn [all_lt map lex_compare]; try reflexivity.
  intros [Hx Ha] [Hy Hb]. now rewrite !alpha_mono, IH.
Qed.

(* The number a digit string denotes in base B, most significant digit first, continuing from v.
   Lib.Varint.be_decode_acc is this accumulator for B = 256, Model.Addr.dec_value_acc the one for
   B = 10 on ASCII digits. *)
Fixpoint val (B : N) (l : list N) (v : N) : N :=
  match l with [] => v | d :: t => val B t (v * B + d) end.

Lemma compare_mono (f : N -> N) : (forall x y, x < y -> f x < f y) ->
  forall x y, (f x ?= f y) = (x ?= y).
Proof.
  intros Hf x y. destruct (N.compare_spec x y) as [->|H|H].
  - apply N.compare_refl.
  - now apply N.compare_lt_iff, Hf.
  - now apply N.compare_gt_iff, Hf.
Qed.

Lemma compare_digit B x y d e : d < B -> e < B ->
  (x * B + d ?= y * B + e) = match x ?= y with Eq => d ?= e | c => c end.
Proof.
  intros Hd He. destruct (N.compare_spec x y) as [->|H|H].
  - apply (compare_mono (fun d => y * B + d)). intros; lia.
  - apply N.compare_lt_iff. nia.
  - apply N.compare_gt_iff. nia.
Qed.

(* digit strings of one length, digits below the base, compare as the numbers they denote *)
Lemma lex_compare_val_from B a : forall b x y, length a = length b -> all_lt B a -> all_lt B b ->
  (val B a x ?= val B b y) = match x ?= y with Eq => lex_compare a b | c => c end.
Proof.
  induction a as [|d a IH]; intros [|e b] x y Hl; try discriminate; cbn [all_lt val lex_compare].
  - now destruct (x ?= y).
  - intros [Hd Ha] [He Hb]. injection Hl as Hl.
    rewrite IH, compare_digit by assumption.
    destruct (x ?= y); try reflexivity.
    unfold N.ltb. rewrite (N.compare_antisym d e). now destruct (d ?= e).
Qed.

Lemma lex_compare_val B a b : length a = length b -> all_lt B a -> all_lt B b ->
  lex_compare a b = (val B a 0 ?= val B b 0).
Proof. intros Hl Ha Hb. now rewrite (lex_compare_val_from B a b 0 0). Qed.

(* One to three bytes and their sextets are the digits, in base 256 and in base 64, of the same
   number, up to the zero bits that fill the last sextet of an incomplete group. *)
Lemma val_sextets1 b0 x : val 64 [b0 / 4; b0 mod 4 * 16] x = 16 * val 256 [b0] x.
Proof. cbn [val]. lia. Qed.

Lemma val_sextets2 b0 b1 x :
  val 64 [b0 / 4; b0 mod 4 * 16 + b1 / 16; b1 mod 16 * 4] x = 4 * val 256 [b0; b1] x.
Proof. cbn [val]. lia. Qed.

Lemma val_sextets3 b0 b1 b2 r x :
  val 64 (b0 / 4 :: b0 mod 4 * 16 + b1 / 16 :: b1 mod 16 * 4 + b2 / 64 :: b2 mod 64 :: r) x =
  val 64 r (val 256 [b0; b1; b2] x).
Proof.
  cbn [val]. f_equal.
  destruct (div_mod_qr b0 4) as (q0 & r0 & -> & _ & -> & ->); [discriminate|].
  destruct (div_mod_qr b1 16) as (q1 & r1 & -> & _ & -> & ->); [discriminate|].
  destruct (div_mod_qr b2 64) as (q2 & r2 & -> & _ & -> & ->); [discriminate|].
  lia.
Qed.

Lemma val_enc_sextets a : forall b x y, length a = length b ->
  (val 64 (enc_sextets a) x ?= val 64 (enc_sextets b) y) = (val 256 a x ?= val 256 b y).
Proof.
  induction a as [| a0 | a0 a1 | a0 a1 a2 t IH] using list_ind3; intros b x y Hl.
  - destruct b; [reflexivity|discriminate].
  - destruct b as [|b0 [|? ?]]; try discriminate. cbn [enc_sextets].
    rewrite !val_sextets1. apply (compare_mono (fun v => 16 * v)). intros; lia.
  - destruct b as [|b0 [|b1 [|? ?]]]; try discriminate. cbn [enc_sextets].
    rewrite !val_sextets2. apply (compare_mono (fun v => 4 * v)). intros; lia.
  - destruct b as [|b0 [|b1 [|b2 u]]]; try discriminate. injection Hl as Hl. cbn [enc_sextets].
    rewrite !val_sextets3. exact (IH u _ _ Hl).
Qed.

Lemma lex_enc_sextets a b : length a = length b -> all_lt 256 a -> all_lt 256 b ->
  lex_compare (enc_sextets a) (enc_sextets b) = lex_compare a b.
Proof.
  intros Hl Ha Hb.
  assert (Hl' : length (enc_sextets a) = length (enc_sextets b)).
  { apply Nat2N.inj. now rewrite <- !lenN_spec, !enc_sextets_len, !lenN_spec, Hl. }
  rewrite (lex_compare_val 256 a b Hl Ha Hb).
  rewrite (lex_compare_val 64 _ _ Hl' (enc_sextets_lt64 a Ha) (enc_sextets_lt64 b Hb)).
  now apply val_enc_sextets.
Qed.

Theorem encode_order a b : length a = length b -> wf_bytes a = true -> wf_bytes b = true ->
  lex_compare (encode a) (encode b) = lex_compare a b.
Proof.
  intros Hl Ha Hb. apply wf_all_lt in Ha, Hb. unfold encode.
  rewrite lex_map_alpha by now apply enc_sextets_lt64. now apply lex_enc_sextets.
Qed.

Theorem peerid_roundtrip id : wf_bytes id = true -> lenN id = PEER_ID_SIZE ->
  peerid_unmarshal (peerid_marshal id) = Some id.
Proof.
  intros Hw Hl. unfold peerid_unmarshal, peerid_marshal.
  assert (Ht : lenN (encode id) = PEER_ID_TEXT).
  { unfold encode. rewrite lenN_spec, map_length, <- lenN_spec, enc_sextets_len, Hl. reflexivity. }
  rewrite Ht, N.eqb_refl, decode_encode by assumption. now rewrite Hl, N.eqb_refl.
Qed.

Theorem peerid_rejects t id : peerid_unmarshal t = Some id ->
  t = peerid_marshal id /\ wf_bytes id = true /\ lenN id = PEER_ID_SIZE.
Proof.
  unfold peerid_unmarshal, peerid_marshal. destruct (lenN t =? PEER_ID_TEXT); [|discriminate].
  destruct (decode t) as [b|] eqn:Ed; [|discriminate].
  destruct (N.eqb_spec (lenN b) PEER_ID_SIZE) as [Hl|]; [|discriminate]. intros E; injection E as <-.
  destruct (decode_canonical t b Ed) as [Ht Hw]. auto.
Qed.
